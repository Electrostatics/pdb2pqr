(* Printing-side lemmas of C09 over C08's string model (Model/PqrFormat.v): what
   --keep-chain, the --ffout renaming and --whitespace can and cannot change in
   an atom line and in the atom-line sequence.

   Proofs/PqrFormat.v is used through the column lemmas pqr_take / pqr_drop,
   respace_keeps_numeric_tokens, order_preserved and length_numbered, and through
   its definitions atom_lines, numbered, num_cols, num_tokens and base_atom;
   [respace] is never unfolded here. *)
From Coq Require Import String List ZArith Arith Lia Bool.
From PV Require Import Lib.Strings Lib.Decimal Model.PqrFormat Proofs.PqrFormat.
Import ListNotations.
Local Open Scope string_scope.

(* the atom after Biomolecule.apply_name_scheme: name and res_name replaced *)
Definition with_names (n r : string) (a : atom) : atom :=
  mkatom (a_type a) (a_serial a) n r (a_chain a) (a_res_seq a) (a_ins a)
         (a_x a) (a_y a) (a_z a) (a_charge a) (a_radius a).

(* a renaming in the sense of the --ffout stage: per atom, new names or none *)
Definition rename_with (f : atom -> option (string * string)) (a : atom) : atom :=
  match f a with
  | Some (r, n) => with_names n r a
  | None => a
  end.

(* the renaming touches columns 13-20 only *)
Lemma rename_cols cf a n r :
  take 12 (pqr_string cf (with_names n r a)) = take 12 (pqr_string cf a)
  /\ drop 20 (pqr_string cf (with_names n r a)) = drop 20 (pqr_string cf a).
Proof.
  rewrite !(pqr_take _ _ 12), !(pqr_drop _ _ 20) by lia. split; reflexivity.
Qed.

(* any combination of --keep-chain and renaming leaves the numeric columns (31
   to the end: x y z charge radius) untouched: columns 1-22 have their widths
   for every atom, and from column 23 on the two lines are the same text *)
Lemma options_keep_numbers_atom cf1 cf2 f a :
  drop 30 (pqr_string cf1 (rename_with f a)) = drop 30 (pqr_string cf2 a).
Proof.
  change 30 with (22 + 8). rewrite <- !drop_drop, !(pqr_drop _ _ 22) by lia.
  unfold rename_with. destruct (f a) as [[r n]|]; reflexivity.
Qed.

(* ... and the record type and serial columns (1-11) too *)
Lemma options_keep_head_atom cf1 cf2 f a :
  take 11 (pqr_string cf1 (rename_with f a)) = take 11 (pqr_string cf2 a).
Proof.
  rewrite !(pqr_take _ _ 11) by lia.
  unfold rename_with. destruct (f a) as [[r n]|]; reflexivity.
Qed.

Lemma rename_with_serial f k a :
  exists g, with_serial k (rename_with f a) = rename_with g (with_serial k a).
Proof.
  unfold rename_with. destruct (f a) as [[r n]|].
  - exists (fun _ => Some (r, n)). reflexivity.
  - exists (fun _ => None). reflexivity.
Qed.

Lemma rename_with_chain f a : a_chain (rename_with f a) = a_chain a.
Proof. unfold rename_with. destruct (f a) as [[r n]|]; reflexivity. Qed.

Lemma numbered_options cf1 cf2 f l : forall i,
  map (drop 30) (numbered cf1 i (map (rename_with f) l)) = map (drop 30) (numbered cf2 i l)
  /\ map (take 11) (numbered cf1 i (map (rename_with f) l)) = map (take 11) (numbered cf2 i l).
Proof.
  induction l as [|a r IH]; intros i; [split; reflexivity|].
  destruct (IH (S i)) as [IH1 IH2].
  destruct (rename_with_serial f (Z.of_nat i + 1) a) as [g Eg].
  cbn [map numbered]. rewrite Eg, IH1, IH2. split; f_equal.
  - apply options_keep_numbers_atom.
  - apply options_keep_head_atom.
Qed.

(* print_biomolecule_atoms on the renamed atom list with one chain flag vs on
   the original list with another: same number of atom lines, line i has the
   same record type, serial and numeric columns - nothing is reordered *)
Theorem print_options_keep_numbers cf1 cf2 f l :
  map (drop 30) (atom_lines (print_items cf1 (map (rename_with f) l)))
    = map (drop 30) (atom_lines (print_items cf2 l))
  /\ map (take 11) (atom_lines (print_items cf1 (map (rename_with f) l)))
    = map (take 11) (atom_lines (print_items cf2 l))
  /\ List.length (atom_lines (print_items cf1 (map (rename_with f) l))) = List.length l.
Proof.
  rewrite !order_preserved.
  destruct (numbered_options cf1 cf2 f l 0) as [H1 H2].
  repeat split; try assumption.
  now rewrite length_numbered, map_length.
Qed.

Lemma num_ok_rename f a : num_ok (rename_with f a) = num_ok a.
Proof. unfold rename_with. destruct (f a) as [[r n]|]; reflexivity. Qed.

Lemma num_tokens_rename f a : num_tokens (rename_with f a) = num_tokens a.
Proof. unfold rename_with. destruct (f a) as [[r n]|]; reflexivity. Qed.

(* the five numeric tokens of the --whitespace line of the renamed atom, with
   or without --keep-chain, are the five numeric column slices of the plain
   line of the original atom *)
Theorem whitespace_options_keep_numeric_tokens cf1 cf2 f a :
  num_ok a = true ->
  exists front,
    tokens (ws_line cf1 (rename_with f a)) = (front ++ num_tokens a)%list
    /\ map (fun c => strip (slice (fst c) (snd c) (pqr_string cf2 a))) num_cols = num_tokens a.
Proof.
  intros H.
  assert (H' : num_ok (rename_with f a) = true) by now rewrite num_ok_rename.
  destruct (respace_keeps_numeric_tokens cf1 _ H') as (front & E & _).
  destruct (respace_keeps_numeric_tokens cf2 _ H) as (_ & _ & S).
  exists front. rewrite num_tokens_rename in E. now split.
Qed.

(* non-vacuity: a concrete atom inside the guard whose line does change in the
   name and chain columns while the numeric columns stay *)
Example print_options_nonvacuous :
  num_ok base_atom = true
  /\ pqr_string true (rename_with (fun _ => Some ("LYN", "HZ1")) base_atom) <> pqr_string false base_atom
  /\ drop 30 (pqr_string true (rename_with (fun _ => Some ("LYN", "HZ1")) base_atom))
     = drop 30 (pqr_string false base_atom)
  /\ String.length (drop 30 (pqr_string false base_atom)) = 39.
Proof. repeat split; try reflexivity. vm_compute. discriminate. Qed.
