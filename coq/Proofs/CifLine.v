(* Proofs about Model/CifLine.v (C10).  A PDB record is a run of fixed-width columns: a text
   made of columns of the right widths is cut back into them by the slices pdb.ATOM takes
   ([slice_cat] of Lib/Strings.v, [parse_columns]).  The PDB writer of the spec produces such a
   text for every expressible row and cif.atom_site assembles the same text, column by column. *)
From Coq Require Import String Ascii List Arith ZArith Bool Lia.
From PV Require Import Lib.Lists Lib.Strings Lib.Decimal Model.CifLine.
Import ListNotations.
Local Open Scope string_scope.

Lemma char_at_slice n s c : slice n (n + 1) s = c -> String.length c = 1 -> char_at n s = Ok c.
Proof.
  unfold slice, char_at. replace (n + 1 - n) with 1 by lia.
  destruct (drop n s) as [|a x]; intros <-; [discriminate|reflexivity].
Qed.

Lemma strip_pad a b s :
  noblank s = true -> strip (repeat_char sp a ++ s ++ repeat_char sp b) = s.
Proof. unfold noblank. intros Hs. apply negb_true_iff in Hs. now apply strip_padded. Qed.

Lemma strip_noblank s : noblank s = true -> strip s = s.
Proof.
  intros H. pose proof (strip_pad 0 0 s H) as P. cbn [repeat_char append] in P.
  now rewrite app_empty_r in P.
Qed.

Lemma strip_rjust w s : noblank s = true -> strip (rjust w s) = s.
Proof.
  intros H. unfold rjust. pose proof (strip_pad (w - String.length s) 0 s H) as P.
  cbn [repeat_char] in P. now rewrite app_empty_r in P.
Qed.

Lemma strip_ljust w s : noblank s = true -> strip (ljust w s) = s.
Proof. intros H. exact (strip_pad 0 (w - String.length s) s H). Qed.

Lemma strip_rjust_sp w s : noblank s = true -> strip (rjust w s ++ " ") = s.
Proof.
  intros H. unfold rjust. rewrite app_assoc_s.
  exact (strip_pad (w - String.length s) 1 s H).
Qed.

Lemma strip_sp_ljust w s : noblank s = true -> strip (" " ++ ljust w s) = s.
Proof. intros H. exact (strip_pad 1 (w - String.length s) s H). Qed.

Lemma strip_sp_rjust w s : noblank s = true -> strip (" " ++ rjust w s) = s.
Proof.
  intros H. unfold rjust. pose proof (strip_pad (S (w - String.length s)) 0 s H) as P.
  cbn [repeat_char append] in P. rewrite app_empty_r in P. exact P.
Qed.

Lemma strip_empty : strip "" = "".
Proof. reflexivity. Qed.

Lemma strip_sp : strip " " = "".
Proof. reflexivity. Qed.

Lemma rjust_S w s : String.length s <= w -> rjust (S w) s = " " ++ rjust w s.
Proof. intros H. unfold rjust. replace (S w - String.length s) with (S (w - String.length s)) by lia. reflexivity. Qed.

Lemma ljust1_empty : ljust 1 "" = " ".
Proof. reflexivity. Qed.

Lemma okv_inv lo hi s : okv lo hi s = true ->
  noblank s = true /\ lo <= String.length s /\ String.length s <= hi.
Proof.
  unfold okv. intros H. apply andb_true_iff in H as [H H3]. apply andb_true_iff in H as [H1 H2].
  apply Nat.leb_le in H2, H3. auto.
Qed.

Lemma okvp_inv lo hi s : okvp (S lo) hi s = true ->
  okv (S lo) hi s = true /\ is_missing (Some s) = false.
Proof.
  unfold okvp, not_marker. intros H. apply andb_true_iff in H as [H M]. split; [exact H|].
  apply okv_inv in H as (_ & L & _). apply negb_true_iff, orb_false_iff in M as [Md Mq].
  cbn [is_missing]. rewrite Md, Mq, !orb_false_r. destruct s; [inversion L|reflexivity].
Qed.

Lemma tokp_inv p it : tokp p it = true -> it = Tok (tok_or "" it) /\ p (tok_or "" it) = true.
Proof. destruct it; try discriminate. auto. Qed.

Lemma tokp_and p q it : tokp (fun s => p s && q s) it = true -> tokp p it = true /\ tokp q it = true.
Proof. destruct it; try discriminate. apply andb_true_iff. Qed.

Lemma is_int_inv s : is_int s = true -> exists z, py_int s = Ok z.
Proof. unfold is_int. destruct (py_int s); [eauto|discriminate]. Qed.

Lemma item_eqb_inv a b : item_eqb a b = true -> exists s, a = Tok s /\ b = Tok s.
Proof.
  destruct a, b; cbn; try discriminate. intros H. apply String.eqb_eq in H. subst. eauto.
Qed.

Lemma spec_kind_inv r k : spec_kind r = Some k -> group_PDB r = Tok (kind_name k).
Proof.
  unfold spec_kind. destruct (group_PDB r) as [| | |g]; try discriminate.
  destruct (String.eqb_spec g "ATOM") as [->|_]; [now intros [= <-]|].
  destruct (String.eqb_spec g "HETATM") as [->|_]; [now intros [= <-]|discriminate].
Qed.

Lemma mv_ok_inv mv : mv_ok mv = true -> is_missing (mv_dot mv) = true /\ is_missing (mv_qm mv) = true.
Proof. apply andb_true_iff. Qed.

Lemma expressible_inv r : expressible r = true ->
  (exists k, spec_kind r = Some k) /\
  tokp (fun s => okv 1 5 s && is_int s) (id r) = true /\
  tokp (okvp 1 4) (name_item r) = true /\
  missing_or plain1 (label_alt_id r) = true /\
  tokp (okvp 1 3) (comp_item r) = true /\
  tokp (okv 1 1) (auth_asym_id r) = true /\
  tokp (fun s => okv 1 4 s && is_int s) (auth_seq_id r) = true /\
  missing_or plain1 (pdbx_PDB_ins_code r) = true /\
  tokp (okv 1 8) (Cartn_x r) = true /\ tokp (okv 1 8) (Cartn_y r) = true /\
  tokp (okv 1 8) (Cartn_z r) = true /\
  tokp (okv 1 6) (occupancy r) = true /\ tokp (okv 1 6) (B_iso_or_equiv r) = true /\
  tokp (okv 1 2) (type_symbol r) = true /\
  missing_or noblank (pdbx_formal_charge r) = true.
Proof.
  unfold expressible. intros H. repeat (apply andb_prop in H; destruct H as [H ?]).
  destruct (spec_kind r) as [k|]; [|discriminate]. repeat split; eauto.
Qed.

(* pdb.ATOM / pdb.HETATM see the line only through these slices *)
Lemma parse_atom_ok k line c0 c6 c12 c16 c17 c21 c22 c26 c30 c38 c46 c54 c60 c72 c76 c78 serial sq :
  slice 0 6 line = c0 -> slice 6 11 line = c6 -> slice 12 16 line = c12 ->
  char_at 16 line = Ok c16 -> slice 17 20 line = c17 -> char_at 21 line = Ok c21 ->
  slice 22 26 line = c22 -> char_at 26 line = Ok c26 ->
  slice 30 38 line = c30 -> slice 38 46 line = c38 -> slice 46 54 line = c46 ->
  slice 54 60 line = c54 -> slice 60 66 line = c60 -> slice 72 76 line = c72 ->
  slice 76 78 line = c76 -> slice 78 80 line = c78 ->
  strip c0 = kind_name k -> py_int (strip c6) = Ok serial -> py_int (strip c22) = Ok sq ->
  parse_atom k line =
    Ok {| f_kind := k; f_serial := serial; f_name := strip c12; f_alt := strip c16;
          f_resname := strip c17; f_chain := strip c21; f_resseq := sq; f_ins := strip c26;
          f_x := strip c30; f_y := strip c38; f_z := strip c46;
          f_occ := strip c54; f_tf := strip c60; f_seg := strip c72; f_elem := strip c76;
          f_chg := strip c78 |}.
Proof.
  intros <- <- <- H16 <- H21 <- H26 <- <- <- <- <- <- <- <- K0 K6 K22. unfold parse_atom.
  rewrite K0, String.eqb_refl, K6, H16, H21, K22, H26. destruct k; reflexivity.
Qed.

Lemma Ok_inj {A} (a b : A) : Ok a = Ok b -> a = b.
Proof. congruence. Qed.

(* HETATM's `except IndexError: raise ValueError` changes which exception, not whether *)
Lemma hetatm_reraise_ok {T} k (g : res T) t :
  match k, g with KHETATM, Err IndexError => Err ValueError | _, g => g end = Ok t -> g = Ok t.
Proof. destruct k, g as [|[]]; congruence. Qed.

Lemma bind_ok_inv {A B} (r : res A) (f : A -> res B) b :
  bind r f = Ok b -> exists a, r = Ok a /\ f a = Ok b.
Proof. destruct r; [eauto|discriminate]. Qed.

(* whatever else happens, a successful parse takes the chain from column 22 *)
Lemma parse_atom_chain k line f c :
  parse_atom k line = Ok f -> char_at 21 line = Ok c -> f_chain f = strip c.
Proof.
  unfold parse_atom. intros H Hc. destruct (negb _); [discriminate|].
  apply bind_ok_inv in H as (serial & _ & H).
  apply bind_ok_inv in H as (alt & _ & H).
  apply bind_ok_inv in H as (t & G & H).
  apply hetatm_reraise_ok in G. rewrite Hc in G.
  apply bind_ok_inv in G as (? & [= <-] & G).
  apply bind_ok_inv in G as (? & _ & G). apply bind_ok_inv in G as (? & _ & G).
  apply Ok_inj in G. subst t. apply Ok_inj in H. now subst f.
Qed.

Definition cat (l : list string) : string := fold_right append "" l.

Section Columns.
  Variables (k : kind) (c0 c6 c11 c12 c16 c17 c20 c21 c22 c26 c27 c30 c38 c46 : string).
  Variables (serial sq : Z).
  Hypothesis L0 : String.length c0 = 6.
  Hypothesis L6 : String.length c6 = 5.
  Hypothesis L11 : String.length c11 = 1.
  Hypothesis L12 : String.length c12 = 4.
  Hypothesis L16 : String.length c16 = 1.
  Hypothesis L17 : String.length c17 = 3.
  Hypothesis L20 : String.length c20 = 1.
  Hypothesis L21 : String.length c21 = 1.
  Hypothesis L22 : String.length c22 = 4.
  Hypothesis L26 : String.length c26 = 1.
  Hypothesis L27 : String.length c27 = 3.
  Hypothesis L30 : String.length c30 = 8.
  Hypothesis L38 : String.length c38 = 8.
  Hypothesis L46 : String.length c46 = 8.
  Hypothesis K0 : strip c0 = kind_name k.
  Hypothesis K6 : py_int (strip c6) = Ok serial.
  Hypothesis K22 : py_int (strip c22) = Ok sq.

  Definition primary_of_cols :=
    (k, serial, strip c12, strip c16, strip c17, strip c21, sq, strip c26,
     strip c30, strip c38, strip c46).

  Lemma parse_cols_primary rest :
    exists f,
      parse_atom k (cat [c0; c6; c11; c12; c16; c17; c20; c21; c22; c26; c27; c30; c38; c46; rest]) = Ok f
      /\ primary f = primary_of_cols.
  Proof using L0 L6 L11 L12 L16 L17 L20 L21 L22 L26 L27 L30 L38 L46 K0 K6 K22.
    set (l := [(6, c0); (5, c6); (1, c11); (4, c12); (1, c16); (3, c17); (1, c20); (1, c21); (4, c22);
               (1, c26); (3, c27); (8, c30); (8, c38); (8, c46); (String.length rest, rest)]).
    assert (F : fitted l) by (repeat constructor; assumption).
    (* S a b, C n: what pdb.ATOM takes at columns a..b (a slice), at column n (a character) *)
    pose proof (fun a b => slice_cat a b l F) as S.
    pose proof (fun n => char_at_slice n _ _ (S n (n + 1))) as C.
    eexists. split.
    - exact (parse_atom_ok k _ _ _ _ _ _ _ _ _ _ _ _ _ _ _ _ _ serial sq
             (S 0 6) (S 6 11) (S 12 16) (C 16 L16) (S 17 20) (C 21 L21) (S 22 26) (C 26 L26)
             (S 30 38) (S 38 46) (S 46 54) eq_refl eq_refl eq_refl eq_refl eq_refl K0 K6 K22).
    - reflexivity.
  Qed.
End Columns.

Definition column (w : nat) (c v : string) : Prop := String.length c = w /\ strip c = v.

(* a whole record: twenty columns, four of them never read *)
Lemma parse_columns k c0 c6 c11 c12 c16 c17 c20 c21 c22 c26 c27 c30 c38 c46 c54 c60 c66 c72 c76 c78
    v6 v12 v16 v17 v21 v22 v26 v30 v38 v46 v54 v60 v72 v76 v78 serial sq :
  column 6 c0 (kind_name k) -> column 5 c6 v6 -> py_int v6 = Ok serial ->
  String.length c11 = 1 -> column 4 c12 v12 -> column 1 c16 v16 -> column 3 c17 v17 ->
  String.length c20 = 1 -> column 1 c21 v21 -> column 4 c22 v22 -> py_int v22 = Ok sq ->
  column 1 c26 v26 -> String.length c27 = 3 ->
  column 8 c30 v30 -> column 8 c38 v38 -> column 8 c46 v46 ->
  column 6 c54 v54 -> column 6 c60 v60 -> String.length c66 = 6 ->
  column 4 c72 v72 -> column 2 c76 v76 -> column 2 c78 v78 ->
  parse_atom k (c0 ++ c6 ++ c11 ++ c12 ++ c16 ++ c17 ++ c20 ++ c21 ++ c22 ++ c26 ++ c27 ++ c30
                ++ c38 ++ c46 ++ c54 ++ c60 ++ c66 ++ c72 ++ c76 ++ c78) =
  Ok {| f_kind := k; f_serial := serial; f_name := v12; f_alt := v16; f_resname := v17;
        f_chain := v21; f_resseq := sq; f_ins := v26; f_x := v30; f_y := v38; f_z := v46;
        f_occ := v54; f_tf := v60; f_seg := v72; f_elem := v76; f_chg := v78 |}.
Proof.
  intros [L0 K0] [L6 <-] K6 L11 [L12 <-] [L16 <-] [L17 <-] L20 [L21 <-] [L22 <-] K22 [L26 <-] L27
         [L30 <-] [L38 <-] [L46 <-] [L54 <-] [L60 <-] L66 [L72 <-] [L76 <-] [L78 K78].
  set (l := [(6, c0); (5, c6); (1, c11); (4, c12); (1, c16); (3, c17); (1, c20); (1, c21); (4, c22);
             (1, c26); (3, c27); (8, c30); (8, c38); (8, c46); (6, c54); (6, c60); (6, c66); (4, c72);
             (2, c76); (2, c78)]).
  assert (F : fitted l) by (repeat constructor; assumption).
  pose proof (fun a b => slice_cat a b l F) as S.
  pose proof (fun n => char_at_slice n _ _ (S n (n + 1))) as C.
  rewrite <- (app_empty_r c78), <- K78.
  exact (parse_atom_ok k _ _ _ _ _ _ _ _ _ _ _ _ _ _ _ _ _ serial sq
           (S 0 6) (S 6 11) (S 12 16) (C 16 L16) (S 17 20) (C 21 L21) (S 22 26) (C 26 L26)
           (S 30 38) (S 38 46) (S 46 54) (S 54 60) (S 60 66) (S 72 76) (S 76 78) (S 78 80)
           K0 K6 K22).
Qed.

Lemma okv_rjust lo w s : okv lo w s = true -> column w (rjust w s) s.
Proof.
  intros H. apply okv_inv in H as (N & _ & L). split; [rewrite length_rjust; lia|now apply strip_rjust].
Qed.

Lemma okv_ljust lo w s : okv lo w s = true -> column w (ljust w s) s.
Proof.
  intros H. apply okv_inv in H as (N & _ & L). split; [rewrite length_ljust; lia|now apply strip_ljust].
Qed.

Lemma len_pdb_name nm el : String.length nm <= 4 -> String.length (pdb_name nm el) = 4.
Proof.
  intros H. unfold pdb_name. destruct (_ && _) eqn:E; [|rewrite length_ljust; lia].
  apply andb_true_iff in E as [E _]. apply Nat.ltb_lt in E.
  cbn [append String.length]. rewrite length_ljust. lia.
Qed.

Lemma strip_pdb_name nm el : noblank nm = true -> strip (pdb_name nm el) = nm.
Proof.
  intros H. unfold pdb_name. destruct (_ && _); [now apply strip_sp_ljust|now apply strip_ljust].
Qed.

Lemma okv_pdb_name lo nm el : okv lo 4 nm = true -> column 4 (pdb_name nm el) nm.
Proof.
  intros H. apply okv_inv in H as (N & _ & L).
  split; [now apply len_pdb_name|now apply strip_pdb_name].
Qed.

Lemma kind_column k : column 6 (ljust 6 (kind_name k)) (kind_name k).
Proof. destruct k; split; reflexivity. Qed.

Lemma len_pdb_charge it : String.length (pdb_charge it) = 2.
Proof.
  unfold pdb_charge, charge_cols. destruct it as [| | |s]; try reflexivity.
  destruct (py_int s) as [z|]; [|reflexivity].
  destruct (digit1 (Z.abs z)); reflexivity.
Qed.

(* alt / insertion code column of the spec: blank when missing *)
Lemma col1 it : missing_or plain1 it = true -> column 1 (ljust 1 (tok_or "" it)) (tok_or "" it).
Proof.
  destruct it as [| | |s]; cbn [missing_or tok_or]; try discriminate; try (split; reflexivity).
  intros H. now apply (okv_ljust 1), okvp_inv.
Qed.

Theorem spec_roundtrip : forall r k,
  expressible r = true -> spec_kind r = Some k ->
  exists serial seq,
    py_int (tok_or "" (id r)) = Ok serial /\ py_int (tok_or "" (auth_seq_id r)) = Ok seq /\
    parse_atom k (pdb_line_of_row r) = Ok (fields_of_row k serial seq r).
Proof.
  intros r k HE HK. pose proof (spec_kind_inv r k HK) as Eg.
  destruct (expressible_inv r HE) as
    (_ & Hid & Hnm & Halt & Hcomp & Hasym & Hseq & Hins & Hx & Hy & Hz & Hocc & Hb & Hts & Hchg).
  apply tokp_and in Hid as [Hid Iid], Hseq as [Hseq Iseq], Hnm as [Hnm _], Hcomp as [Hcomp _].
  destruct (is_int_inv _ (proj2 (tokp_inv _ _ Iid))) as [serial Hserial].
  destruct (is_int_inv _ (proj2 (tokp_inv _ _ Iseq))) as [sq Hsq].
  exists serial, sq. split; [exact Hserial|]. split; [exact Hsq|].
  unfold pdb_line_of_row. rewrite Eg. cbn [tok_or].
  (* columns 67-76: six never read, then the segment identifier *)
  change "          " with ("      " ++ "    "). rewrite (app_assoc_s "      ").
  apply parse_columns with (v6 := tok_or "" (id r)) (v22 := tok_or "" (auth_seq_id r));
    try reflexivity; try assumption;
    try (apply (okv_rjust 1); now apply tokp_inv);
    try (apply col1; assumption).
  - apply kind_column.
  - apply (okv_pdb_name 1). now apply tokp_inv.
  - apply (okv_ljust 1). now apply tokp_inv.
  - split; reflexivity.
  - split; [apply len_pdb_charge|reflexivity].
Qed.

Lemma row_kind_tok mv k r : group_PDB r = Tok (kind_name k) -> row_kind mv r = Ok (Some k).
Proof. intros H. unfold row_kind. rewrite H. destruct k; reflexivity. Qed.

Lemma get_tok mv p it : tokp p it = true -> get mv it = Ok (Some (tok_or "" it)).
Proof. destruct it; try discriminate. reflexivity. Qed.

(* _auth_or_label returns the name the row denotes *)
Lemma pick_code mv a l s : mv_ok mv = true -> eff a l = Tok s -> is_missing (Some s) = false ->
  pick mv a l = Ok (Some s).
Proof.
  intros Hmv He Hs. destruct (mv_ok_inv _ Hmv) as [Hd Hq].
  destruct a as [| | |t]; cbn [eff] in He; cbn [pick get bind].
  - now rewrite He.
  - now rewrite Hd, He.
  - now rewrite Hq, He.
  - injection He as ->. now rewrite Hs.
Qed.

Lemma pick_tok mv lo hi a l : mv_ok mv = true -> tokp (okvp (S lo) hi) (eff a l) = true ->
  pick mv a l = Ok (Some (tok_or "" (eff a l))).
Proof.
  intros Hmv H. destruct (tokp_inv _ _ H) as [E M]. apply okvp_inv in M as [_ M]. now apply pick_code.
Qed.

(* the name field as the repaired code computes it *)
Lemma name_code nm el :
  ljust 4 (if (if (String.length nm <? 4)%nat then (String.length el <? 2)%nat else false)
           then " " ++ nm else nm) = pdb_name nm el.
Proof. unfold pdb_name. destruct (_ <? 4)%nat, (_ <? 2)%nat; reflexivity. Qed.

Lemma if_Ok {A} (b : bool) (x y : A) : (if b then Ok x else Ok y) = Ok (if b then x else y).
Proof. now destruct b. Qed.

Lemma rjust_ljust_exact w s : String.length s = w -> rjust w s = ljust w s.
Proof. intros H. rewrite rjust_long, ljust_long by lia. reflexivity. Qed.

(* the alt / insertion code column as the repaired code computes it: " " if v in _MISSING else v *)
Lemma col1_code mv it : mv_ok mv = true -> missing_or plain1 it = true ->
  exists v, get mv it = Ok v /\ (if is_missing v then " " else py_str v) = ljust 1 (tok_or "" it).
Proof.
  intros Hmv H. destruct (mv_ok_inv _ Hmv) as [Hd Hq].
  destruct it as [| | |s]; cbn [missing_or] in H; try discriminate.
  - exists (mv_dot mv). now rewrite Hd.
  - exists (mv_qm mv). now rewrite Hq.
  - apply okvp_inv in H as [L Hm]. apply okv_inv in L as (_ & L1 & L2).
    exists (Some s). rewrite Hm. cbn [py_str tok_or]. now rewrite ljust_long by lia.
Qed.

(* _pdb_charge computes the spec's columns 79-80 *)
Lemma charge_code mv chg : mv_ok mv = true -> missing_or noblank chg = true ->
  exists v, get mv chg = Ok v /\ pdb_charge_v v = pdb_charge chg.
Proof.
  intros Hmv H. destruct (mv_ok_inv _ Hmv) as [Hd Hq]. unfold pdb_charge_v.
  destruct chg as [| | |s]; cbn [missing_or] in H; try discriminate.
  - exists (mv_dot mv). now rewrite Hd.
  - exists (mv_qm mv). now rewrite Hq.
  - exists (Some s). split; [reflexivity|]. cbn [pdb_charge is_missing].
    (* int(""), int(".") and int("?") raise: blank either way *)
    destruct (String.eqb_spec s "") as [->|_]; [reflexivity|].
    destruct (String.eqb_spec s ".") as [->|_]; [reflexivity|].
    destruct (String.eqb_spec s "?") as [->|_]; reflexivity.
Qed.

Theorem cif_line_is_pdb_record : forall mv r k,
  mv_ok mv = true -> expressible r = true -> spec_kind r = Some k ->
  row_line mv r = Ok (Some (k, pdb_line_of_row r)).
Proof.
  intros mv r k Hmv HE HK. pose proof (spec_kind_inv r k HK) as Eg.
  destruct (expressible_inv r HE) as
    (_ & Hid & Hnm & Halt & Hcomp & Hasym & Hseq & Hins & Hx & Hy & Hz & Hocc & Hb & Hts & Hchg).
  destruct (col1_code mv _ Hmv Halt) as (valt & Ealt & Calt).
  destruct (col1_code mv _ Hmv Hins) as (vins & Eins & Cins).
  destruct (charge_code mv _ Hmv Hchg) as (vch & Ech & Cch).
  destruct (okv_inv _ _ _ (proj2 (tokp_inv _ _ Hasym))) as (_ & La1 & La2).
  unfold row_line. rewrite (row_kind_tok mv k r Eg). cbn [bind]. unfold assemble.
  rewrite (pick_tok mv _ _ _ _ Hmv Hnm), (pick_tok mv _ _ _ _ Hmv Hcomp), Ealt, Eins, Ech,
    (get_tok mv _ _ Hid), (get_tok mv _ _ Hts), (get_tok mv _ _ Hasym), (get_tok mv _ _ Hseq),
    (get_tok mv _ _ Hx), (get_tok mv _ _ Hy), (get_tok mv _ _ Hz), (get_tok mv _ _ Hocc),
    (get_tok mv _ _ Hb).
  cbn [bind py_str rjust_v need_str]. rewrite if_Ok. cbn [bind].
  rewrite name_code, Calt, Cins, Cch, (rjust_ljust_exact 1 (tok_or "" (auth_asym_id r))) by lia.
  replace (match k with KATOM => ljust 6 (kind_name k) | KHETATM => kind_name k end)
    with (ljust 6 (kind_name k)) by (destruct k; reflexivity).
  unfold pdb_line_of_row, name_item, comp_item. rewrite Eg. cbn [tok_or]. now rewrite !app_assoc_s.
Qed.

(* mmCIF = PDB for EVERY expressible row and every covered convention: the line is the PDB
   record, so all sixteen parsed fields are those of the atom the row denotes *)
Theorem cif_eq_pdb : forall mv r,
  mv_ok mv = true -> expressible r = true ->
  exists k serial seq,
    spec_kind r = Some k /\
    row_fields mv r = Ok (Some (pdb_line_of_row r, fields_of_row k serial seq r)) /\
    parse_atom k (pdb_line_of_row r) = Ok (fields_of_row k serial seq r).
Proof.
  intros mv r Hmv HE. destruct (expressible_inv r HE) as [[k HK] _].
  destruct (spec_roundtrip r k HE HK) as (serial & seq & _ & _ & H3).
  exists k, serial, seq. split; [exact HK|]. split; [|exact H3].
  unfold row_fields. rewrite (cif_line_is_pdb_record mv r k Hmv HE HK). cbn [bind]. now rewrite H3.
Qed.

Lemma kind_eqb_eq a b : kind_eqb a b = true <-> a = b.
Proof. destruct a, b; cbn; split; intros; congruence. Qed.

(* the conjunction is nested like the tuple *)
Lemma primary_eqb_eq f g : primary_eqb f g = true <-> primary f = primary g.
Proof.
  unfold primary_eqb, primary.
  repeat apply pair_eqb_iff; first [apply kind_eqb_eq | apply Z.eqb_eq | apply String.eqb_eq].
Qed.

Lemma agrees_iff mv r : agrees mv r <-> agreesb mv r = true.
Proof.
  unfold agrees, agreesb. split.
  - intros (k & l & f & fs & Hk & Hr & Hp & He). rewrite Hk, Hr, Hp. now apply primary_eqb_eq.
  - destruct (spec_kind r) as [k|]; [|discriminate].
    destruct (row_fields mv r) as [[[l f]|]|] eqn:Hr; try discriminate.
    destruct (parse_atom k (pdb_line_of_row r)) as [fs|] eqn:Hp; try discriminate.
    intros H. exists k, l, f, fs. split; [reflexivity|]. split; [reflexivity|]. split; [exact Hp|].
    now apply primary_eqb_eq.
Qed.

Lemma guard_expressible r : guard r = true -> expressible r = true.
Proof. intros H. exact H. Qed.

(* cif_eq_pdb in the shape rows_loop_guard uses: line and fields existential, as in row_ok.
   guard is expressible (Model/CifLine.v), so despite the name no expressible row is left out *)
Theorem cif_eq_pdb_partial : forall mv r,
  mv_ok mv = true -> guard r = true ->
  exists k serial seq l f,
    spec_kind r = Some k /\
    row_fields mv r = Ok (Some (l, f)) /\
    parse_atom k (pdb_line_of_row r) = Ok (fields_of_row k serial seq r) /\
    primary f = primary (fields_of_row k serial seq r).
Proof.
  intros mv r Hmv HG.
  destruct (cif_eq_pdb mv r Hmv HG) as (k & serial & seq & H1 & H2 & H3).
  exists k, serial, seq, (pdb_line_of_row r), (fields_of_row k serial seq r). auto.
Qed.

(* the full statement of the property on one row *)
Theorem cif_agrees : forall mv r, mv_ok mv = true -> expressible r = true -> agrees mv r.
Proof.
  intros mv r Hmv HE. destruct (cif_eq_pdb mv r Hmv HE) as (k & serial & seq & H1 & H2 & H3).
  exists k, (pdb_line_of_row r), (fields_of_row k serial seq r), (fields_of_row k serial seq r). auto.
Qed.

Lemma mv_ok_installed : mv_ok mv_installed = true.
Proof. reflexivity. Qed.
Lemma mv_ok_legacy : mv_ok mv_legacy = true.
Proof. reflexivity. Qed.

Corollary cif_eq_pdb_both : forall r, expressible r = true -> agrees mv_installed r /\ agrees mv_legacy r.
Proof. intros r HE. split; apply cif_agrees; auto using mv_ok_installed, mv_ok_legacy. Qed.

(* outside mv_ok the statement fails: a library that handed '.' over as "X" would put X in column 17 *)
Theorem mv_ok_needed : exists mv r, mv_ok mv = false /\ expressible r = true /\ ~ agrees mv r.
Proof.
  exists {| mv_dot := Some "X"; mv_qm := None |}, w_plain.
  split; [reflexivity|]. split; [reflexivity|].
  intros A. apply agrees_iff in A. vm_compute in A. discriminate.
Qed.

(* regression + non-vacuity: the rows of fixed_witnesses - the inputs of the defect classes
   repaired by fix_C10_P1..P6 (ordinary row with the installed library, alt-loc, HD21, insertion
   code, -100.123, occupancy 1.0000, label_asym B / auth A, formal charge 1, label WAT / auth HOH,
   label CA / auth CA1) and a row without auth names - are expressible and agree under both
   conventions; charge, names and coordinates come back *)
Example guard_nonvacuous :
  forallb expressible fixed_witnesses = true /\
  forallb (agreesb mv_installed) fixed_witnesses = true /\
  forallb (agreesb mv_legacy) fixed_witnesses = true /\
  (exists l, row_fields mv_installed w_charge = Ok (Some (l, fields_of_row KATOM 7 12 w_charge))
             /\ f_chg (fields_of_row KATOM 7 12 w_charge) = "1+") /\
  (exists l f, row_fields mv_legacy w_comp = Ok (Some (l, f)) /\ f_resname f = "HOH") /\
  (exists l f, row_fields mv_installed w_atomname = Ok (Some (l, f)) /\ f_name f = "CA1") /\
  (exists l f, row_fields mv_installed w_noauth = Ok (Some (l, f)) /\ f_name f = "CA" /\ f_resname f = "LYS" /\ f_chg f = "2-") /\
  (exists l f, row_fields mv_installed w_wide = Ok (Some (l, f)) /\ f_x f = "-100.123").
Proof.
  split; [vm_compute; reflexivity|]. split; [vm_compute; reflexivity|]. split; [vm_compute; reflexivity|].
  split; [eexists; split; [vm_compute; reflexivity|reflexivity]|].
  split; [eexists; eexists; split; [vm_compute; reflexivity|reflexivity]|].
  split; [eexists; eexists; split; [vm_compute; reflexivity|reflexivity]|].
  split; [eexists; eexists; split; [vm_compute; reflexivity|repeat split; reflexivity]|].
  eexists; eexists; split; [vm_compute; reflexivity|reflexivity].
Qed.

(* [rc] is the record of row [r]: the conclusion of cif_eq_pdb_partial with the record
   named *)
Definition row_ok (mv : mvconv) (r : row) (rc : record) : Prop :=
  exists k serial seq l f,
    spec_kind r = Some k /\ rc = RAtom l f /\ row_fields mv r = Ok (Some (l, f)) /\
    parse_atom k (pdb_line_of_row r) = Ok (fields_of_row k serial seq r) /\
    primary f = primary (fields_of_row k serial seq r).

(* the model filter `get_value("pdbx_PDB_model_num", i) == j` *)
Definition selb (sel : option pyval) (r : row) : bool :=
  match sel with
  | None => true
  | Some j => match pdbx_PDB_model_num r with Tok m => pyval_eqb (Some m) j | _ => false end
  end.

Definition rows_good (rows : list row) : Prop :=
  forall r, In r rows -> guard r = true /\
    exists m n, pdbx_PDB_model_num r = Tok m /\ okv 1 4 m = true /\ py_int m = Ok n.

Lemma rows_loop_guard mv sel rows :
  mv_ok mv = true ->
  (forall r, In r rows -> guard r = true /\ exists m, pdbx_PDB_model_num r = Tok m) ->
  forall acc, exists recs,
    rows_loop mv sel rows acc = ((acc ++ recs)%list, None) /\
    Forall2 (row_ok mv) (filter (selb sel) rows) recs.
Proof.
  intros Hmv. induction rows as [|r t IH]; intros HG acc.
  - exists []. cbn. now rewrite app_nil_r.
  - destruct (HG r (or_introl eq_refl)) as (Hg & m & Em).
    destruct (cif_eq_pdb_partial mv r Hmv Hg) as (k & serial & seq & l & f & H1 & H2 & H3 & H4).
    assert (Hok : row_ok mv r (RAtom l f)) by (exists k, serial, seq, l, f; auto).
    assert (E : rows_loop mv sel (r :: t) acc
                = rows_loop mv sel t (if selb sel r then acc ++ [RAtom l f] else acc)%list).
    { cbn [rows_loop]. unfold selb. rewrite Em.
      destruct sel as [j|]; cbn [get bind]; [destruct (pyval_eqb (Some m) j)|]; now rewrite ?H2. }
    rewrite E. cbn [filter].
    destruct (IH (fun r' Hr' => HG r' (or_intror Hr'))
                 (if selb sel r then acc ++ [RAtom l f] else acc)%list) as (recs & -> & F).
    destruct (selb sel r).
    + exists (RAtom l f :: recs). rewrite <- app_assoc. split; [reflexivity|now constructor].
    + exists recs. auto.
Qed.

Lemma count_models_same mv m rows acc :
  (forall r, In r rows -> pdbx_PDB_model_num r = Tok m) ->
  acc = [] \/ acc = [Some m] ->
  count_models mv rows acc = Ok (match rows with [] => acc | _ => [Some m] end).
Proof.
  revert acc. induction rows as [|r t IH]; intros acc H Hacc; [reflexivity|].
  cbn [count_models]. rewrite (H r (or_introl eq_refl)). cbn [get bind].
  replace (if mem_pyval (Some m) acc then acc else (acc ++ [Some m])%list) with [Some m]
    by (destruct Hacc as [-> | ->]; cbn; now rewrite ?String.eqb_refl).
  rewrite IH by (auto; intros; apply H; now right). now destruct t.
Qed.

(* one model: every row yields its atom, in file order, nothing skipped, no exception *)
Theorem atom_site_single_partial : forall mv rows m,
  mv_ok mv = true -> rows <> [] ->
  (forall r, In r rows -> guard r = true /\ pdbx_PDB_model_num r = Tok m) ->
  exists recs, atom_site mv rows = mkout recs [] None /\ Forall2 (row_ok mv) rows recs.
Proof.
  intros mv rows m Hmv Hne H. unfold atom_site.
  rewrite (count_models_same mv m rows []) by (auto; intros; now apply H).
  destruct rows as [|r0 t]; [congruence|]. cbn [List.length Nat.eqb].
  destruct (rows_loop_guard mv None (r0 :: t) Hmv) with (acc := @nil record) as (recs & E & F).
  - intros r Hr. destruct (H r Hr). eauto.
  - rewrite E. exists recs. split; [reflexivity|].
    replace (filter (selb None) (r0 :: t)) with (r0 :: t) in F; [exact F|].
    clear. induction (r0 :: t) as [|x l IH]; cbn; congruence.
Qed.

Lemma model_line_int m n : okv 1 4 m = true -> py_int m = Ok n ->
  model_serial (model_line (Some m)) = Some n.
Proof.
  intros Hm Hn. destruct (okv_rjust _ _ _ Hm) as [L S].
  assert (E : slice 10 14 (model_line (Some m)) = rjust 4 m).
  { unfold model_line. cbn [py_str]. rewrite <- (app_empty_r (rjust 4 m)) at 1.
    apply (slice_cat 10 14 [(10, "MODEL     "); (4, rjust 4 m)]). repeat constructor. exact L. }
  unfold model_serial. now rewrite E, S, Hn.
Qed.

Definition block_ok (mv : mvconv) (rows : list row) (j : pyval) (blk : list record) : Prop :=
  exists n recs,
    blk = (RModel (model_line j) (Some n) :: recs ++ [REndmdl])%list /\
    Forall2 (row_ok mv) (filter (selb (Some j)) rows) recs.

Lemma rows_good_guard rows r : rows_good rows -> In r rows ->
  guard r = true /\ exists m, pdbx_PDB_model_num r = Tok m.
Proof. intros HG Hr. destruct (HG r Hr) as (Hg & m & _ & Em & _). eauto. Qed.

Lemma models_loop_guard mv rows models :
  mv_ok mv = true -> rows_good rows ->
  (forall j, In j models -> exists m n, j = Some m /\ okv 1 4 m = true /\ py_int m = Ok n) ->
  forall acc, exists blocks,
    models_loop mv models rows acc [] = mkout (acc ++ concat blocks)%list [] None /\
    Forall2 (block_ok mv rows) models blocks.
Proof.
  intros Hmv HG. induction models as [|j t IH]; intros HM acc.
  - exists []. cbn. now rewrite app_nil_r.
  - destruct (HM j (or_introl eq_refl)) as (m & n & -> & Hm & Hn).
    cbn [models_loop]. rewrite (model_line_int m n Hm Hn).
    destruct (rows_loop_guard mv (Some (Some m)) rows Hmv (fun r => rows_good_guard rows r HG)
                (acc ++ [RModel (model_line (Some m)) (Some n)])%list) as (recs & -> & F).
    destruct (IH (fun j' Hj' => HM j' (or_intror Hj'))
                 (((acc ++ [RModel (model_line (Some m)) (Some n)]) ++ recs) ++ [REndmdl])%list)
      as (blocks & -> & F2).
    exists ((RModel (model_line (Some m)) (Some n) :: recs ++ [REndmdl])%list :: blocks). split.
    + f_equal. cbn [concat]. rewrite <- !app_assoc. cbn [app]. now rewrite <- !app_assoc.
    + constructor; [|exact F2]. exists n, recs. auto.
Qed.

Lemma count_models_all mv (P : pyval -> Prop) rows :
  (forall r, In r rows -> exists v, get mv (pdbx_PDB_model_num r) = Ok v /\ P v) ->
  forall acc models, count_models mv rows acc = Ok models ->
  (forall j, In j acc -> P j) -> forall j, In j models -> P j.
Proof.
  induction rows as [|r t IH]; intros HT acc models H Hacc; cbn [count_models] in H.
  - injection H as <-. exact Hacc.
  - destruct (HT r (or_introl eq_refl)) as (v & Ev & Pv). rewrite Ev in H.
    apply (IH (fun r' Hr' => HT r' (or_intror Hr')) _ _ H).
    intros j Hj. destruct (mem_pyval v acc); [auto|].
    apply in_app_or in Hj as [Hj | [<- | []]]; auto.
Qed.

(* several models: one block MODEL n / the rows of that model in file order / ENDMDL per entry
   of the list [models] that count_models returns, in the order of that list; no exception, no
   error entry.  (count_models collects the distinct model numbers in order of first appearance,
   Model/CifLine.v; the theorem takes its result as a hypothesis and proves nothing about it
   beyond count_models_all.) *)
Theorem atom_site_models_partial : forall mv rows models,
  mv_ok mv = true -> rows_good rows ->
  count_models mv rows [] = Ok models -> List.length models <> 1 ->
  exists blocks,
    atom_site mv rows = mkout (concat blocks) [] None /\
    Forall2 (block_ok mv rows) models blocks.
Proof.
  intros mv rows models Hmv HG HC Hn. unfold atom_site. rewrite HC.
  destruct (Nat.eqb_spec (List.length models) 1) as [E|_]; [congruence|].
  apply (models_loop_guard mv rows models Hmv HG) with (acc := @nil record).
  apply (count_models_all mv _ rows) with (acc := []) (models := models); [|exact HC|intros ? []].
  intros r Hr. destruct (HG r Hr) as (_ & m & n & -> & Hm & Hi). exists (Some m). split; [reflexivity|]. exists m, n. auto.
Qed.

(* read_cif: the other categories cannot change the atoms; they can only abort the call *)

Lemma site_recs_app {O} (a b : list (frec O)) : site_recs (a ++ b) = (site_recs a ++ site_recs b)%list.
Proof. apply flat_map_app. Qed.

Lemma site_recs_other {O} (l : list O) : site_recs (map FOther l) = [].
Proof. induction l as [|x l IH]; [reflexivity|exact IH]. Qed.

Lemma site_recs_site {O} (l : list record) : site_recs (map (@FSite O) l) = l.
Proof. induction l as [|x l IH]; [reflexivity|]. cbn. now f_equal. Qed.

Lemma run_handlers_ok {O} (hs : list (hres O)) :
  (forall h, In h hs -> exists p, h = Ok p) -> exists p, run_handlers hs = Ok p.
Proof.
  induction hs as [|h t IH]; intros H; [eexists; reflexivity|].
  destruct (H h (or_introl eq_refl)) as [p ->].
  destruct IH as [q Hq]; [intros h' Hh'; apply H; now right|].
  cbn [run_handlers bind]. rewrite Hq. eexists; reflexivity.
Qed.

Lemma run_handlers_err {O} (hs : list (hres O)) e :
  In (Err e) hs -> exists e', run_handlers hs = Err e'.
Proof.
  induction hs as [|h t IH]; intros H; [destruct H|].
  destruct H as [-> | H]; [eexists; reflexivity|].
  destruct h as [p|e0]; [|eexists; reflexivity].
  destruct (IH H) as [e' He']. cbn [run_handlers bind]. rewrite He'. eexists; reflexivity.
Qed.

(* PROVIDED no other handler raises, read_cif returns, and its coordinate records are exactly
   atom_site's, whatever the other categories contain *)
Theorem read_cif_atoms : forall (O : Type) mv rows (pre post : list (hres O)),
  (forall h, In h (pre ++ post)%list -> exists p, h = Ok p) ->
  o_exn (atom_site mv rows) = None ->
  exists l errs, read_cif mv rows pre post = Ok (l, errs) /\ site_recs l = o_recs (atom_site mv rows).
Proof.
  intros O mv rows pre post H Hx.
  destruct (run_handlers_ok pre) as [a Ha]; [intros h Hh; apply H, in_or_app; now left|].
  destruct (run_handlers_ok post) as [c Hc]; [intros h Hh; apply H, in_or_app; now right|].
  unfold read_cif. rewrite Ha. cbn [bind]. rewrite Hx, Hc. cbn [bind].
  eexists. eexists. split; [reflexivity|].
  rewrite !site_recs_app, !site_recs_other, site_recs_site. apply app_nil_r.
Qed.

(* the proviso is needed: a single raising handler makes read_cif yield nothing *)
Theorem read_cif_handler_raises : forall (O : Type) mv rows (pre post : list (hres O)) e,
  In (Err e) (pre ++ post)%list -> exists e', read_cif mv rows pre post = Err e'.
Proof.
  intros O mv rows pre post e H. unfold read_cif.
  apply in_app_or in H as [H | H].
  - destruct (run_handlers_err pre e H) as [e' ->]. eexists; reflexivity.
  - destruct (run_handlers pre) as [a|e0]; [|eexists; reflexivity]. cbn [bind].
    destruct (o_exn (atom_site mv rows)); [eexists; reflexivity|].
    destruct (run_handlers_err post e H) as [e' ->]. eexists; reflexivity.
Qed.

(* every exception of the model is one _optional_records catches *)
Lemma optional_records_ok {O} (hs : list (string * hres O)) h :
  In h (map optional_records hs) -> exists p, h = Ok p.
Proof. intros Hh. apply in_map_iff in Hh as ([n [p|[| |]]] & <- & _); eexists; reflexivity. Qed.

(* repaired read_cif: whatever the other handlers do (return or raise one of the caught
   exceptions), the call returns atom_site's coordinate records - the proviso of read_cif_atoms is
   discharged by _optional_records *)
Theorem read_cif_guarded_atoms : forall (O : Type) mv rows (pre post : list (string * hres O)),
  o_exn (atom_site mv rows) = None ->
  exists l errs, read_cif_guarded mv rows pre post = Ok (l, errs) /\ site_recs l = o_recs (atom_site mv rows).
Proof.
  intros O mv rows pre post Hx. apply read_cif_atoms; [|exact Hx].
  rewrite <- map_app. apply optional_records_ok.
Qed.

Theorem read_cif_guarded_strict : forall (O : Type) mv rows (pre post : list (string * hres O)) e,
  o_exn (atom_site mv rows) = Some e -> read_cif_guarded mv rows pre post = Err e.
Proof.
  intros O mv rows pre post e Hx. unfold read_cif_guarded, read_cif.
  destruct (run_handlers_ok _ (optional_records_ok pre)) as [a ->]. cbn [bind]. now rewrite Hx.
Qed.

(* a .cif suffix (any case) sends the file to the mmCIF reader WHATEVER the text is *)
Theorem classify_cif_any_text : forall suffix text,
  lower_s suffix = ".cif" -> classify_input suffix text = RCif.
Proof. intros suffix text H. unfold classify_input. now rewrite H. Qed.

(* in particular every legal opening - comment / blank preamble, magic line, DATA_ in any case *)
Corollary classify_legal_opening : forall suffix text,
  lower_s suffix = ".cif" -> legal_opening text = true -> classify_input suffix text = RCif.
Proof. intros suffix text H _. now apply classify_cif_any_text. Qed.

(* and no other suffix does *)
Theorem classify_other_suffix : forall suffix text,
  lower_s suffix <> ".cif" -> classify_input suffix text = RPdb.
Proof.
  intros suffix text H. unfold classify_input.
  now destruct (String.eqb_spec (lower_s suffix) ".cif").
Qed.

Example file_layer_nonvacuous :
  lower_s ".CIF" = ".cif" /\ lower_s ".Cif" = ".cif" /\
  legal_opening ("#\#CIF_1.1" ++ nl ++ "# written by a program" ++ nl ++ nl ++ "  DATA_1ABC" ++ nl ++ "#" ++ nl) = true /\
  legal_opening ("data_TEST" ++ nl) = true /\
  legal_opening ("ATOM      1  N   ALA A   1" ++ nl) = false /\
  classify_input ".CIF" ("#\#CIF_1.1" ++ nl ++ "Data_x" ++ nl) = RCif /\
  classify_input ".mmcif" ("data_x" ++ nl) = RPdb /\ classify_input ".pdb" ("data_x" ++ nl) = RPdb.
Proof. repeat split; vm_compute; reflexivity. Qed.

Lemma read_cif_blocks_none {O} mv (bs : list (cblock O)) acc :
  (forall b, In b bs -> fst b = None) -> read_cif_blocks mv bs acc = Ok acc.
Proof.
  induction bs as [|[o pp] t IH]; intros H; [reflexivity|].
  pose proof (H (o, pp) (or_introl eq_refl)) as E. cbn [fst] in E. subst o.
  apply IH. intros b Hb. apply H. now right.
Qed.

(* blocks without atom_site (a ligand dictionary before or after the coordinates) neither abort
   the call nor change its result: it is the result for the one block that has atoms *)
Theorem read_cif_blocks_one_site : forall (O : Type) mv (l1 l2 : list (cblock O)) rows pre post,
  (forall b, In b (l1 ++ l2)%list -> fst b = None) ->
  read_cif_blocks mv (l1 ++ (Some rows, (pre, post)) :: l2)%list ([], []) = read_cif_guarded mv rows pre post.
Proof.
  intros O mv l1 l2 rows pre post H. induction l1 as [|[o pp] t IH]; cbn [app read_cif_blocks] in *.
  - destruct (read_cif_guarded mv rows pre post) as [r|e]; [|reflexivity].
    now apply read_cif_blocks_none.
  - pose proof (H (o, pp) (or_introl eq_refl)) as E. cbn [fst] in E. subst o.
    apply IH. intros b Hb. apply H. now right.
Qed.
