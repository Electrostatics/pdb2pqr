(* C03 - no atom is silently lost, duplicated or invented.
   Property theorems only; proofs are in Proofs/NameProtocol.v (its partition theorem rests on
   Proofs/ForceField.v) and Proofs/Peoe.v (the --ligand theorem), the generated tables and
   their obligations in Generated/C03Table.v and Generated/C03Pipe.v.

   Flip, Alcoholic and Water are proved for ARBITRARY residues (any ordered name list
   meeting the boolean well-formedness predicate wf_*, defined in Model/NameProtocol.v);
   the generated table instances meet wf_* (vm_compute obligation), so the *_table
   theorems are corollaries.  Carboxylic is proved per table instance only (reachable-set
   certificate): C03_carboxylic_names_partial.  There is no parametric statement for it: no
   well-formedness predicate for Carboxylic residues is defined. *)
From Coq Require Import String List Bool Permutation Arith.
From PV Require Import Lib.Strings Model.NameProtocol Proofs.NameProtocol Generated.C03Table Generated.C03Pipe.
From PV Require Model.ForceField Proofs.ForceField.
Import ListNotations.

(* soundness of a reachable-set certificate, for any machine *)
Theorem C03_certificate_sound : forall (L C : Type) (step : pst -> L -> outcome) (complete : pst -> C -> outcome)
  (labels : list L) (clabels : list C) (good : nl -> bool),
  (forall s l, step s l <> Disabled -> In l labels) ->
  (forall s c, complete s c <> Disabled -> In c clabels) ->
  forall S, closed L step labels S = true -> all_good C complete clabels good S = true ->
  forall s0, memP s0 S = true -> run_ok L C step complete good s0.
Proof. exact certificate_sound. Qed.

(* the boolean used by the certificates means: no duplicate name, exactly the
   expected set, no *FLIP / LP* / FLIP placeholder *)
Theorem C03_good_names_meaning : forall e l, good_names e l = true ->
  NoDup l /\ (forall x, In x l <-> In x e) /\ (forall x, In x l -> placeholder x = false).
Proof. exact good_names_spec. Qed.

(* Parametric statements, for every residue.
   proto_ok step complete expected start  :=  start is not Error, and for EVERY label
   list ls: the run never reaches Error, and from wherever it stops complete yields
   names l with NoDup l, (In x l <-> In x expected), no placeholder in l. *)

(* Flip, any residue: base = its ordered atom names, mv = the moveable names.
   wf_flip: names distinct, mv distinct and a sub-list of base, no name of the residue is a
   placeholder (ends in "FLIP", starts with "LP", is "FLIP") - hence no xFLIP copy clashes. *)
Theorem C03_flip_names : forall base mv, wf_flip base mv = true ->
  proto_ok _ _ (flip_step mv) flip_complete base (flip_start base mv).
Proof. exact flip_names_param. Qed.

(* Alcoholic, any residue with hydroxyl/thiol hydrogen h (present or absent on entry).
   wf_alc: names distinct, no name is a placeholder (so LP1/LP2 are free and complete
   deletes nothing else), h is not a placeholder.  Expected: base without h, then h. *)
Theorem C03_alcoholic_names : forall h base, wf_alc h base = true ->
  proto_ok _ _ (alc_step h) (alc_complete h) (alc_expected h base) (alc_start h base).
Proof. exact alc_names_param. Qed.

(* Water, any residue.  wf_wat: names distinct, no placeholder, not (H2 without H1) -
   exactly the complement of C03_water_names_refuted.  Expected: base + missing H1, H2. *)
Theorem C03_water_names : forall base, wf_wat base = true ->
  proto_ok _ _ wat_step wat_complete (wat_expected base) (wat_start base).
Proof. exact wat_names_param. Qed.

(* The table instances: corollaries; instances_wf is a generated obligation. *)

(* Flip (HIS family, ASN, GLN): any sequence of fix_flip(atom)/finalize, then complete *)
Theorem C03_flip_names_table : forall i mv, In i instances -> i_kind i = KFlip mv ->
  proto_ok _ _ (flip_step mv) flip_complete (i_expected i) (flip_start (i_base i) mv).
Proof. intros i mv. exact (flip_table_param instances i mv instances_wf). Qed.

(* Alcoholic (SER, THR, TYR, CYS): any sequence of try_donor/try_acceptor outcomes
   (incl. the undo of try_both) and finalize, then complete *)
Theorem C03_alcoholic_names_table : forall i h, In i instances -> i_kind i = KAlc h ->
  proto_ok _ _ (alc_step h) (alc_complete h) (i_expected i) (alc_start h (i_base i)).
Proof. intros i h. exact (alc_table_param instances i h instances_wf). Qed.

(* Water: O alone or O+H1+H2 on input *)
Theorem C03_water_names_table : forall i, In i instances -> i_kind i = KWat ->
  proto_ok _ _ wat_step wat_complete (i_expected i) (wat_start (i_base i)).
Proof. intros i. exact (wat_table_param instances i instances_wf). Qed.

(* Carboxylic (ASH, GLH), for every order / longflag decision of __init__, followed
   by HydrogenRoutines.cleanup.  Oracle assumption carried by the model: finalize's
   bestatom is None only when hlist is empty (some hydrogen has energy < 999.99). *)
Theorem C03_carboxylic_names_partial : forall i c ord lf, In i instances -> i_kind i = KCarb c ->
  proto_ok _ _ (carb_step c) (carb_complete c) (i_expected i) (carb_start c ord lf (i_base i)).
Proof. intros i c ord lf. exact (carb_table_sound instances i c ord lf instances_ok). Qed.

(* a residue without hydrogen-bond partners is finalized and, once fixed, never
   completed: its names are final already *)
Theorem C03_flip_nohb_table : forall i mv, In i instances -> i_kind i = KFlip mv ->
  match flip_start (i_base i) mv with
  | Next s0 _ => match flip_step mv s0 FFinalize with
                 | Next s' _ => fixed s' = true -> final_ok (i_expected i) (names s')
                 | Disabled => True
                 | Error => False
                 end
  | _ => True
  end.
Proof. intros i mv. exact (flip_nohb_sound instances i mv instances_ok). Qed.

Theorem C03_water_nohb_table : forall i, In i instances -> i_kind i = KWat ->
  match wat_start (i_base i) with
  | Next s0 _ => match wat_step s0 WFinalize with
                 | Next s' _ => fixed s' = true -> final_ok (i_expected i) (names s')
                 | Disabled => True
                 | Error => False
                 end
  | _ => True
  end.
Proof. intros i. exact (wat_nohb_sound instances i instances_ok). Qed.

(* FULL statement "every water ends as O, H1, H2" is REFUTED by the model for a water
   that arrives with H2 but without H1: try_donor and finalize both return as soon as
   H2 exists, so H1 is never built (the real run then aborts on the non-integral
   residue charge - loud, not silent; see notes/C03.md). *)
Theorem C03_water_names_refuted :
  exists s', wat_complete (mkP ["O"; "H2"]%string false [] []) tt = Next s' [] /\
             names s' = ["O"; "H2"]%string.
Proof. eexists. split; vm_compute; reflexivity. Qed.

(* set_termini's split at hidden chain ends is the identity on the residues:
   for every chain and every marker predicate: the strands are non-empty and, concatenated in
   order, are exactly the chain - no residue lost, none in two strands *)
Theorem C03_split_hidden_ends : forall (A : Type) (mark : A -> bool) (rs : list A),
  concat (split_at A mark [] rs) = rs /\ (forall s, In s (split_at A mark [] rs) -> s <> []).
Proof. intros A mark rs. split; [exact (split_at_concat A mark rs [])|intros s; exact (split_at_nonempty A mark rs [] s)]. Qed.

(* The residue constructors (Amino / Nucleic / WAT __init__).
   For ALL record-name lists and ALL alias tables: the constructed atom list has no
   duplicate, it is exactly the first occurrences of the CANONICAL names in file order
   (so alt-loc copies, repeated records and alias + canonical spellings of one atom give
   one atom), and the object-list + dict residue built the same way is consistent and has
   those names. *)
Theorem C03_residue_init_nodup : forall alt recs,
  NoDup (residue_init alt recs) /\
  residue_init alt recs = first_occ [] (map (canon alt) recs) /\
  (forall x, In x (residue_init alt recs) <-> In x (map (canon alt) recs)).
Proof. exact residue_init_nodup. Qed.

Theorem C03_residue_init_layers : forall alt recs,
  WFres (res_init alt recs) /\ res_names (res_init alt recs) = residue_init alt recs.
Proof. exact res_init_agrees. Qed.

(* Why a name list may stand for a Residue.
   For every operation sequence whose guards hold in the name-list layer (create: name
   absent; remove: present; rename: old present, new absent), the object-list + dict layer
   (Residue.atoms + Residue.map) does not raise, dict and list stay consistent (no
   duplicate object, dict = exactly the (name, object) pairs of the list), both layers list
   the same names in the same order, names are distinct and has_atom = list membership. *)
Theorem C03_layers_agree : forall ops s w w', WFres s -> res_names s = w_names w ->
  apply_ops w ops = Some w' ->
  exists s', res_run s (map rop_of ops) = Some s' /\ WFres s' /\ res_names s' = w_names w' /\
             NoDup (w_names w') /\ (forall n, res_has n s' = mem n (w_names w')).
Proof. exact layers_agree. Qed.

(* ... and where the remove/rename guard fails on a consistent residue, Python raises KeyError *)
Theorem C03_layer_keyerror : forall s n x, WFres s -> ~ In n (res_names s) ->
  res_remove n s = None /\ res_rename n x s = None.
Proof. exact keyerror_ok. Qed.

(* repair_heavy + add_hydrogens accounting.
   For EVERY residue (any ordered list ns of distinct names, any extra or missing atoms; no
   OP1/OP2 and no pseudo-atom name in ns) and EVERY reference list of distinct names: if
   the placement oracles never fail, repair_heavy (a) deletes and logs exactly the names
   outside the reference, in order, (b) does not raise, and after add_hydrogens the residue
   holds exactly the reference's atoms, no duplicate (N+1/C-1 are not atoms; HG of a bridged
   cysteine is not built).  Not proved: that fuel n*n+n+1 always suffices (OUT-OF-FUEL is
   never reached) - the loop is compared with the real one on every monitored run instead. *)
Theorem C03_repair_add_complete : forall ref ns ssb,
  NoDup ns -> NoDup ref -> mem "OP1" ns = false -> mem "OP2" ns = false ->
  (forall x, In x ns -> is_pseudo x = false) ->
  exists w logged, repair_heavy ref (fun _ _ => true) true ns = RDone w logged /\
    logged = filter (fun a => negb (mem a ref)) ns /\
    exists w', add_hydrogens ref (fun _ _ => true) ssb w = Some w' /\ NoDup (w_names w') /\
      forall x, In x (w_names w') <->
                In x ref /\ is_pseudo x = false /\ ~ (ssb = true /\ x = "HG"%string /\ ~ In x ns).
Proof. intros ref. exact (repair_add_complete ref (fun _ _ => true) (fun _ _ => true) (fun _ _ => eq_refl) (fun _ _ => eq_refl)). Qed.

(* generated: for every amino-acid template, with get_nearest_bonds as the feasibility test
   and no neighbouring residue, the seenmap loop rebuilds the whole side chain from
   N, CA, C, O, and any single missing side-chain atom: it cannot get stuck or raise *)
Theorem C03_rebuild_templates_table : forall t, In t rtemplates ->
  rebuild_from_backbone_ok t = true /\ rebuild_single_ok t = true.
Proof. intros t. exact (rtemplates_meaning rtemplates t rtemplates_all_ok). Qed.

(* C03's clause "each fully parameterised residue is written with exactly the atom set its
   topology defines for its final state", end to end at name level.
   pipeline_names (Model/NameProtocol.v) composes, for ONE residue: terminus patches
   (removals + alternate-name renames) -> repair_heavy -> state patches -> add_hydrogens ->
   the optimisation protocol of the residue's kind -> cleanup -> HIS.set_state -> partition
   by "the force field has an entry".

   For ALL input name lists ns, terminus patch effects ps1 that apply without clash, final
   reference name lists ref, flags (any atom missing in the molecule, bridged cysteine,
   opt / noopt), protocol kinds k in {none, Flip mv, Alcoholic h, Water} with ANY label
   list ls (any oracle answers, any length), cleanup / histidine choices, placement oracles
   that never fail, and ANY force-field predicate entry that has an entry for every expected
   name (the residue is fully parameterised): if the boolean guards hold
     wf_input: names after the terminus patches and the reference names are distinct, no
               OP1/OP2, no N+1/C-1 among the atoms, no placeholder name in the reference,
               and (repair runs, or nothing is missing or extra),
     wf_kind:  moveable names distinct and among the reference atoms / h not a placeholder /
               not (H2 without H1),
   then the run ends (or the label list did not fit the protocol) with
     - final names = written names, none unassigned, no duplicate, no placeholder, and
       exactly the expected final-state set (reference atoms; + h; + H1,H2; minus the
       cleanup / set_state hydrogen),
     - the deletions logged by repair_heavy are exactly the names outside the reference,
     - every input heavy atom that belongs to the reference occurs exactly once.
   Not covered by this theorem: state patches after repair (ps2 = []), Carboxylic protocols
   (C03_pipeline_carboxylic_partial), nucleic OP1/OP2 aliasing. *)
Theorem C03_pipeline_written_set :
  forall (ref : nl) (feas hfeas : string -> nl -> bool) (entry : string -> bool),
  (forall a l, feas a l = true) -> (forall a l, hfeas a l = true) ->
  forall ps1 ns w0 am ssb opt k ls cl his,
  apply_patches ps1 (mkW ns []) = Some w0 ->
  let l0 := w_names w0 in
  let R := ref_atoms ref ssb l0 in
  wf_input ref l0 am = true ->
  wf_kind k R = true ->
  (forall c, cl = Some c -> is_hyd (c_h1 c) = true) ->
  (forall x, In x (expected_final opt k cl his R) -> entry x = true) ->
  pipeline_ok ref l0 am (expected_final opt k cl his R)
    (pipeline_names ref feas hfeas entry (MFull opt) ps1 [] am ssb k ls cl his ns).
Proof.
  intros ref feas hfeas entry Hf Hh ps1 ns w0 am ssb opt k ls cl his Hp l0 R Hw Hk.
  exact (pipeline_written_set ref feas hfeas entry Hf Hh ps1 ns w0 am ssb opt k ls cl his Hp Hw (eff_kind_wf opt k R Hk)).
Qed.

(* the same with the predicate taken from C01's force-field map: entry x = "lookup m r (idf x)
   is defined", for any map m, residue key r and name interning idf *)
Theorem C03_pipeline_written_set_lookup :
  forall (m : ForceField.ffmap) (r : ForceField.id) (idf : string -> ForceField.id)
         (ref : nl) (feas hfeas : string -> nl -> bool),
  let entry := fun x => match ForceField.lookup m r (idf x) with Some _ => true | None => false end in
  (forall a l, feas a l = true) -> (forall a l, hfeas a l = true) ->
  forall ps1 ns w0 am ssb opt k ls cl his,
  apply_patches ps1 (mkW ns []) = Some w0 ->
  wf_input ref (w_names w0) am = true ->
  wf_kind k (ref_atoms ref ssb (w_names w0)) = true ->
  (forall c, cl = Some c -> is_hyd (c_h1 c) = true) ->
  (forall x, In x (expected_final opt k cl his (ref_atoms ref ssb (w_names w0))) ->
             exists e, ForceField.lookup m r (idf x) = Some e) ->
  pipeline_ok ref (w_names w0) am (expected_final opt k cl his (ref_atoms ref ssb (w_names w0)))
    (pipeline_names ref feas hfeas entry (MFull opt) ps1 [] am ssb k ls cl his ns).
Proof.
  intros m r idf ref feas hfeas entry Hf Hh ps1 ns w0 am ssb opt k ls cl his Hp Hw Hk Hc He.
  apply (pipeline_written_set ref feas hfeas entry Hf Hh ps1 ns w0 am ssb opt k ls cl his Hp Hw (eff_kind_wf opt k _ Hk) Hc).
  intros x Hx. destruct (He x Hx) as [e E]. unfold entry. rewrite E. reflexivity.
Qed.

(* The same instantiated on the six built-in force fields.
   pcases (Generated/C03Pipe.v): 53 concrete one-residue pipeline inputs observed on builder
   peptides (every optimisable residue type and ALA/GLY neighbours at N-terminal / internal /
   C-terminal position, charged and neutral termini, waters).  full_<FF> = the cases whose
   expected final names all have an entry in the map C01 builds from <FF>.DAT/.names
   (FF_<FF>.built) under the residue name the run ended with.  For each such case: every
   label list, every never-failing placement oracle -> the pipeline writes exactly the expected
   names (pipeline_ok as above). *)
Theorem C03_pipeline_written_set_AMBER : forall c, In c full_AMBER ->
  forall feas hfeas ls, (forall a x, feas a x = true) -> (forall a x, hfeas a x = true) ->
  exists w0 e, apply_patches (pc_ps1 c) (mkW (pc_ns c) []) = Some w0 /\ pcase_expected c = Some e /\
    pipeline_ok (pc_ref c) (w_names w0) false e
      (pipeline_names (pc_ref c) feas hfeas (entry_AMBER c) (MFull true) (pc_ps1 c) [] false (pc_ssb c)
                      (pc_kind c) ls (pc_cl c) (pc_his c) (pc_ns c)).
Proof. exact (pcases_ff_sound pcases entry_AMBER pcases_guard). Qed.

Theorem C03_pipeline_written_set_CHARMM : forall c, In c full_CHARMM ->
  forall feas hfeas ls, (forall a x, feas a x = true) -> (forall a x, hfeas a x = true) ->
  exists w0 e, apply_patches (pc_ps1 c) (mkW (pc_ns c) []) = Some w0 /\ pcase_expected c = Some e /\
    pipeline_ok (pc_ref c) (w_names w0) false e
      (pipeline_names (pc_ref c) feas hfeas (entry_CHARMM c) (MFull true) (pc_ps1 c) [] false (pc_ssb c)
                      (pc_kind c) ls (pc_cl c) (pc_his c) (pc_ns c)).
Proof. exact (pcases_ff_sound pcases entry_CHARMM pcases_guard). Qed.

Theorem C03_pipeline_written_set_PARSE : forall c, In c full_PARSE ->
  forall feas hfeas ls, (forall a x, feas a x = true) -> (forall a x, hfeas a x = true) ->
  exists w0 e, apply_patches (pc_ps1 c) (mkW (pc_ns c) []) = Some w0 /\ pcase_expected c = Some e /\
    pipeline_ok (pc_ref c) (w_names w0) false e
      (pipeline_names (pc_ref c) feas hfeas (entry_PARSE c) (MFull true) (pc_ps1 c) [] false (pc_ssb c)
                      (pc_kind c) ls (pc_cl c) (pc_his c) (pc_ns c)).
Proof. exact (pcases_ff_sound pcases entry_PARSE pcases_guard). Qed.

Theorem C03_pipeline_written_set_PEOEPB : forall c, In c full_PEOEPB ->
  forall feas hfeas ls, (forall a x, feas a x = true) -> (forall a x, hfeas a x = true) ->
  exists w0 e, apply_patches (pc_ps1 c) (mkW (pc_ns c) []) = Some w0 /\ pcase_expected c = Some e /\
    pipeline_ok (pc_ref c) (w_names w0) false e
      (pipeline_names (pc_ref c) feas hfeas (entry_PEOEPB c) (MFull true) (pc_ps1 c) [] false (pc_ssb c)
                      (pc_kind c) ls (pc_cl c) (pc_his c) (pc_ns c)).
Proof. exact (pcases_ff_sound pcases entry_PEOEPB pcases_guard). Qed.

Theorem C03_pipeline_written_set_SWANSON : forall c, In c full_SWANSON ->
  forall feas hfeas ls, (forall a x, feas a x = true) -> (forall a x, hfeas a x = true) ->
  exists w0 e, apply_patches (pc_ps1 c) (mkW (pc_ns c) []) = Some w0 /\ pcase_expected c = Some e /\
    pipeline_ok (pc_ref c) (w_names w0) false e
      (pipeline_names (pc_ref c) feas hfeas (entry_SWANSON c) (MFull true) (pc_ps1 c) [] false (pc_ssb c)
                      (pc_kind c) ls (pc_cl c) (pc_his c) (pc_ns c)).
Proof. exact (pcases_ff_sound pcases entry_SWANSON pcases_guard). Qed.

Theorem C03_pipeline_written_set_TYL06 : forall c, In c full_TYL06 ->
  forall feas hfeas ls, (forall a x, feas a x = true) -> (forall a x, hfeas a x = true) ->
  exists w0 e, apply_patches (pc_ps1 c) (mkW (pc_ns c) []) = Some w0 /\ pcase_expected c = Some e /\
    pipeline_ok (pc_ref c) (w_names w0) false e
      (pipeline_names (pc_ref c) feas hfeas (entry_TYL06 c) (MFull true) (pc_ps1 c) [] false (pc_ssb c)
                      (pc_kind c) ls (pc_cl c) (pc_his c) (pc_ns c)).
Proof. exact (pcases_ff_sound pcases entry_TYL06 pcases_guard). Qed.

(* non-vacuity: how many of the 53 cases are fully parameterised, per force field
   (AMBER, CHARMM, PARSE, PEOEPB, SWANSON, TYL06); only PARSE has the neutral termini *)
Example C03_pipeline_ff_nonvacuous : full_counts = [33; 33; 53; 33; 33; 33].
Proof.
  change full_counts with
    (map (fun m => List.length (filter (fun c => pcase_entries (entry_of m (pc_ffname c)) c) pcases))
         [FF_AMBER.built; FF_CHARMM.built; FF_PARSE.built; FF_PEOEPB.built; FF_SWANSON.built; FF_TYL06.built]).
  rewrite (full_counts_shared idn entry_of (fun _ _ _ => eq_refl)). vm_compute. reflexivity.
Qed.

(* --clean prints every atom left after the terminus patches and adds nothing *)
Theorem C03_pipeline_clean : forall ref feas hfeas entry ps1 ps2 ns w0 am ssb k ls cl his,
  apply_patches ps1 (mkW ns []) = Some w0 ->
  pipeline_names ref feas hfeas entry MClean ps1 ps2 am ssb k ls cl his ns = PRes (w_names w0) (w_names w0) [] [].
Proof. exact pipeline_clean. Qed.

(* --assign-only: written = the current names that have an entry, the rest is reported
   unassigned, nothing is added *)
Theorem C03_pipeline_assign_only : forall ref feas hfeas entry ps1 ps2 ns w0 w1 am ssb k ls cl his,
  apply_patches ps1 (mkW ns []) = Some w0 -> apply_patches ps2 w0 = Some w1 -> NoDup (w_names w1) ->
  exists final written un,
    pipeline_names ref feas hfeas entry MAssignOnly ps1 ps2 am ssb k ls cl his ns = PRes final written un [] /\
    final = his_names his (w_names w1) /\ written = filter entry final /\
    un = filter (fun x => negb (entry x)) final /\
    (forall x, In x written -> In x (w_names w1) /\ entry x = true).
Proof.
  intros ref feas hfeas entry ps1 ps2 ns w0 w1 am ssb k ls cl his H0 H1 _.
  exact (pipeline_assign_only ref feas hfeas entry ps1 ps2 ns w0 w1 am ssb k ls cl his H0 H1).
Qed.

(* Carboxylic residues: the protocol stage of the pipeline, for every table instance (atom
   list as presented when the object is constructed), every order/longflag decision, every
   label list and finalize choice *)
Theorem C03_pipeline_carboxylic_partial : forall i c ord lf ls best, In i instances -> i_kind i = KCarb c ->
  match proto_stage (PCarb c ord lf) (LCarb ls best) (i_base i) with
  | POk l' => final_ok (i_expected i) l'
  | PDisabled => True
  | PErr => False
  end.
Proof. intros i c ord lf ls best. exact (pipeline_carb_stage instances i c ord lf ls best instances_ok). Qed.

(* apply_force_field: hits ++ misses is a permutation of the atoms (none lost, none
   duplicated); the printed list is exactly the hits *)
Theorem C03_partition_no_loss_no_dup : forall (A : Type) (m : ForceField.ffmap) (rs : list (@ForceField.res A)),
  Permutation (map fst (fst (ForceField.assign m rs)) ++ snd (ForceField.assign m rs)) (Proofs.ForceField.all_atoms rs) /\
  (NoDup (Proofs.ForceField.all_atoms rs) ->
   NoDup (map fst (fst (ForceField.assign m rs)) ++ snd (ForceField.assign m rs))).
Proof. exact partition_no_loss_no_dup. Qed.

(* generated: among the patches applied at run time only 5TERM removes heavy atoms,
   and exactly P, O1P, O2P; every other run-time patch removes hydrogens only *)
Theorem C03_patch_removals_table : forall p, In p patches -> p_runtime p = true ->
  (p_key p = "5TERM"%string -> NoDup (heavy_removed p) /\ forall x, In x (heavy_removed p) <-> In x phosphate) /\
  (p_key p <> "5TERM"%string -> forall x, In x (p_remove p) -> is_hyd x = true).
Proof. intros p. exact (patch_table_sound patches p patch_table_ok). Qed.

(* non-vacuity: the table has instances of all four kinds, a concrete ASN-like flip
   run with steps reaches complete with the expected names, and a run-time patch
   that removes heavy atoms exists *)
Example C03_nonvacuous :
  (existsb (fun i => match i_kind i with KFlip _ => true | _ => false end) instances &&
   existsb (fun i => match i_kind i with KAlc _ => true | _ => false end) instances &&
   existsb (fun i => match i_kind i with KWat => true | _ => false end) instances &&
   existsb (fun i => match i_kind i with KCarb _ => true | _ => false end) instances &&
   existsb (fun p => p_runtime p && negb (nl_eqb (heavy_removed p) [])) patches = true) /\
  (let base := ["N"; "CA"; "CG"; "OD1"; "ND2"; "HD21"]%string in
   let mv := ["OD1"; "ND2"; "HD21"]%string in
   match flip_start base mv with
   | Next s0 _ => match run _ (flip_step mv) s0 [FFix "ND2FLIP"%string; FFix "OD1FLIP"%string] with
                  | Next s _ => match flip_complete s tt with
                                | Next s' _ => names s' = ["N"; "CA"; "CG"; "OD1"; "ND2"; "HD21"]%string
                                | _ => False
                                end
                  | _ => False
                  end
   | _ => False
   end).
Proof. split; vm_compute; reflexivity. Qed.

(* non-vacuity of the repair theorems: the ARG template is in the table with a non-trivial
   nearest-bond list, and a residue given without CB, with an unknown atom, is repaired *)
Example C03_nonvacuous_repair :
  existsb (fun t => String.eqb (rt_name t) "ARG" && Nat.ltb 20 (List.length (rt_nearest t))) rtemplates = true /\
  show_rres (repair_heavy ["N"; "CA"; "C"; "O"; "CB"; "H"; "HA"]%string (fun _ _ => true) true
                          ["N"; "CA"; "XX"; "C"; "O"]%string)
  = "DONE N CA C O CB | logged XX"%string.
Proof. split; vm_compute; reflexivity. Qed.

(* Model.Peoe and Proofs.Peoe are used by the last theorem only *)
From PV Require Import Model.Peoe Proofs.Peoe.

(* "each atom is written exactly once" also with --ligand (second half of C16's transfer
   theorem for the ligand loop of main.non_trivial, transfer_only_ligand_holds): for all
   residue lists with distinct atom identities, no atom is written twice, and every ligand
   atom the MOL2 file names is written exactly once *)
Theorem C03_ligand_step_once :
  forall (P : Type) (lnames heavy : list string) (lig : list (string * P)) (rs : list (presidue P)),
  NoDup (map (@pa_id P) (all_atoms rs)) ->
  let names := lig_names lnames heavy lig rs in
  NoDup (map fst (written lnames heavy lig rs)) /\
  (forall r a p, In r rs -> selected names r = true ->
                 In a (het_prefix (pr_atoms r)) ->
                 lookup (pa_name a) lig = Some p ->
                 In (pa_id a, Some p) (written lnames heavy lig rs) /\
                 count_occ Nat.eq_dec (map fst (written lnames heavy lig rs)) (pa_id a) = 1%nat).
Proof. intros P lnames heavy lig rs Hnd. exact (proj2 (transfer_only_ligand_holds lig lnames heavy rs Hnd)). Qed.

Print Assumptions C03_certificate_sound.
Print Assumptions C03_good_names_meaning.
Print Assumptions C03_flip_names.
Print Assumptions C03_alcoholic_names.
Print Assumptions C03_water_names.
Print Assumptions C03_split_hidden_ends.
Print Assumptions C03_residue_init_nodup.
Print Assumptions C03_residue_init_layers.
Print Assumptions C03_layers_agree.
Print Assumptions C03_layer_keyerror.
Print Assumptions C03_flip_names_table.
Print Assumptions C03_alcoholic_names_table.
Print Assumptions C03_water_names_table.
Print Assumptions C03_carboxylic_names_partial.
Print Assumptions C03_flip_nohb_table.
Print Assumptions C03_water_nohb_table.
Print Assumptions C03_water_names_refuted.
Print Assumptions C03_repair_add_complete.
Print Assumptions C03_rebuild_templates_table.
Print Assumptions C03_pipeline_written_set.
Print Assumptions C03_pipeline_written_set_lookup.
Print Assumptions C03_pipeline_written_set_AMBER.
Print Assumptions C03_pipeline_written_set_CHARMM.
Print Assumptions C03_pipeline_written_set_PARSE.
Print Assumptions C03_pipeline_written_set_PEOEPB.
Print Assumptions C03_pipeline_written_set_SWANSON.
Print Assumptions C03_pipeline_written_set_TYL06.
Print Assumptions C03_pipeline_ff_nonvacuous.
Print Assumptions C03_pipeline_clean.
Print Assumptions C03_pipeline_assign_only.
Print Assumptions C03_pipeline_carboxylic_partial.
Print Assumptions C03_partition_no_loss_no_dup.
Print Assumptions C03_ligand_step_once.
Print Assumptions C03_patch_removals_table.
Print Assumptions C03_nonvacuous.
Print Assumptions C03_nonvacuous_repair.
