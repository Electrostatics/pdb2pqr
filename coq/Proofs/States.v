(* Proofs about the residue-state model (C02): Model/States.v.

   The generated per-force-field facts (check_arows / check_strand / check_water / ...
   = true, by evaluation) are read as statements about every row; on top of them,
   by induction: nucleic strands of ANY length carry -1 per phosphate, an integer total
   passes the integrality guard, set_state names every descriptor prefix x base, and
   assign_termini / set_termini flag each chain end exactly once for ALL chain lists
   (what is proved with hidden chain ends is said where the termini part starts). *)
From Coq Require Import List Bool ZArith PArith String Ascii Arith Lia Permutation.
From PV Require Import Lib.Lists Lib.Decimal Model.ForceField Model.States.
Import ListNotations.

Lemma mem_nat_In k l : mem_nat k l = true <-> In k l.
Proof. exact (existsb_eqb_In Nat.eqb Nat.eqb_eq k l). Qed.

Lemma base_eqb_eq a b : base_eqb a b = true -> a = b.
Proof.
  apply (idx_inj base_idx
    [B_ALA; B_ARG; B_ASN; B_ASP; B_CYS; B_GLN; B_GLU; B_GLY; B_HIS; B_ILE; B_LEU; B_LYS; B_MET; B_PHE;
     B_PRO; B_SER; B_THR; B_TRP; B_TYR; B_VAL; B_AR0; B_ASH; B_CYX; B_CYM; B_GLH; B_HID; B_HIE; B_HIP;
     B_HSD; B_HSE; B_HSP; B_LYN; B_TYM] B_ALA).
  intro x. destruct x; reflexivity.
Qed.

Lemma prefix_eqb_eq a b : prefix_eqb a b = true -> a = b.
Proof. apply (idx_inj prefix_idx [PNone; PN; PC; PNN; PNC] PNone). intro x. destruct x; reflexivity. Qed.

Lemma patch_eqb_eq a b : patch_eqb a b = true -> a = b.
Proof.
  apply (idx_inj patch_idx
    [P_AR0; P_ASH; P_CYX; P_CYM; P_GLH; P_HIP; P_LYN; P_TYM; P_NEUTRAL_NTERM; P_NEUTRAL_CTERM;
     P_NTERM; P_CTERM; P_PEPTIDE; P_5TERM; P_3TERM] P_AR0).
  intro x. destruct x; reflexivity.
Qed.

Lemma sname_eqb_eq a b : sname_eqb a b = true -> a = b.
Proof.
  destruct a as [p x], b as [q y]. unfold sname_eqb. cbn [fst snd]. intro H.
  apply andb_true_iff in H. destruct H as [H1 H2].
  apply prefix_eqb_eq in H1. apply base_eqb_eq in H2. subst. reflexivity.
Qed.

Local Open Scope Z_scope.

Lemma within_spec q t tol : within q t tol = true <-> Z.abs (q - t) <= tol.
Proof. unfold within. apply Z.leb_le. Qed.

Lemma check_arows_parts tol m exc rows : check_arows tol m exc rows = true ->
  forallb (arow_ok tol m exc) rows = true /\ keys_distinct rows = true /\ exc_tight tol m exc rows = true.
Proof. unfold check_arows. rewrite !andb_true_iff. tauto. Qed.

(* A check that holds at one tolerance holds at every larger one (the exact tables, tol = 0,
   give the statements at pdb2pqr's own TOL).  The one part that runs the other way is
   exc_tight inside check_arows: an excluded row has to FAIL at the tolerance in question, so
   check_arows is monotone only for the rows outside the exception list; for exc = [] that is
   all of it.  check_strand is also antitone in the flag: mixed = true pairs more ends.
   Between (TOL, true) and (0, false) neither implication holds in general; (0, true)
   implies both. *)

Lemma within_tol_mono q t tol1 tol2 :
  within q t tol1 = true -> tol1 <= tol2 -> within q t tol2 = true.
Proof. rewrite !within_spec. lia. Qed.

Lemma alt_ok_tol_mono tol1 tol2 m ff formal alt :
  alt_ok tol1 m ff formal alt = true -> tol1 <= tol2 -> alt_ok tol2 m ff formal alt = true.
Proof. unfold alt_ok. destruct (resolve m ff alt); [apply within_tol_mono | trivial]. Qed.

Lemma arow_ok_tol_mono tol1 tol2 m exc r :
  arow_ok tol1 m exc r = true -> tol1 <= tol2 -> arow_ok tol2 m exc r = true.
Proof.
  unfold arow_ok. intros H Ht. destruct (mem_nat (ar_key r) exc); [reflexivity|].
  revert H. apply forallb_imp. intros alt H. exact (alt_ok_tol_mono _ _ _ _ _ _ H Ht).
Qed.

Lemma exc_tight_tol_anti tol1 tol2 m exc rows :
  exc_tight tol2 m exc rows = true -> tol1 <= tol2 -> exc_tight tol1 m exc rows = true.
Proof.
  unfold exc_tight. intros H Ht. revert H. apply forallb_imp. intros k H.
  apply existsb_exists in H. destruct H as [r [Hr H]]. apply existsb_exists. exists r. split; [exact Hr|].
  apply andb_true_iff in H. destruct H as [Hk H]. rewrite Hk. apply negb_true_iff in H. apply negb_true_iff.
  destruct (arow_ok tol1 m [] r) eqn:E; [|reflexivity]. rewrite <- H. symmetry.
  exact (arow_ok_tol_mono _ _ _ _ _ E Ht).
Qed.

Lemma check_arows_tol_mono tol1 tol2 m exc rows :
  check_arows tol1 m exc rows = true -> tol1 <= tol2 ->
  exc_tight tol2 m exc rows = true -> check_arows tol2 m exc rows = true.
Proof.
  unfold check_arows. intros H Ht HE. rewrite HE, andb_true_r.
  apply andb_true_iff in H. destruct H as [H _]. apply andb_true_iff in H. destruct H as [H HD].
  rewrite HD, andb_true_r. revert H. apply forallb_imp. intros r H. exact (arow_ok_tol_mono _ _ _ _ _ H Ht).
Qed.

Lemma check_arows_tol_mono_nil tol1 tol2 m rows :
  check_arows tol1 m [] rows = true -> tol1 <= tol2 -> check_arows tol2 m [] rows = true.
Proof. intros H Ht. exact (check_arows_tol_mono _ _ _ _ _ H Ht eq_refl). Qed.

Lemma check_strand_tol_mono tol1 tol2 mixed1 mixed2 m rows :
  check_strand tol1 mixed1 m rows = true -> tol1 <= tol2 -> (mixed2 = true -> mixed1 = true) ->
  check_strand tol2 mixed2 m rows = true.
Proof.
  unfold check_strand. intros H Ht Hm.
  apply andb_true_iff in H. destruct H as [H HP]. apply andb_true_iff in H. destruct H as [HI HE].
  rewrite HP, andb_true_r. apply andb_true_iff. split.
  - revert HI. apply forallb_imp. intro r. destruct (is_internal r); [|trivial].
    apply forallb_imp. intros q H. exact (within_tol_mono _ _ _ _ H Ht).
  - revert HE. apply forallb_imp. intro r5. destruct (is_five r5); [|trivial].
    apply forallb_imp. intro r3. destruct (is_three r3); [|trivial]. cbn [andb].
    unfold pairable. destruct mixed2; [rewrite (Hm eq_refl)|]; cbn [orb].
    + apply forallb_imp. intro q5. apply forallb_imp. intros q3 H. exact (within_tol_mono _ _ _ _ H Ht).
    + destruct (Bool.eqb (is_ribo (nr_base r5)) (is_ribo (nr_base r3))); [|trivial]. rewrite orb_true_r.
      apply forallb_imp. intro q5. apply forallb_imp. intros q3 H. exact (within_tol_mono _ _ _ _ H Ht).
Qed.

Lemma check_water_tol_mono tol1 tol2 m wat atoms :
  check_water tol1 m wat atoms = true -> tol1 <= tol2 -> check_water tol2 m wat atoms = true.
Proof. unfold check_water. destruct (resolve m wat atoms); [apply within_tol_mono | trivial]. Qed.

Lemma keys_distinct_inj rows : keys_distinct rows = true ->
  forall r r', In r rows -> In r' rows -> ar_key r = ar_key r' -> r = r'.
Proof.
  unfold keys_distinct. induction rows as [|x rows IH]; cbn [map]; intros HD r r' Hr Hr' E; [inversion Hr|].
  apply andb_true_iff in HD. destruct HD as [HD1 HD2]. apply negb_true_iff in HD1.
  assert (NI : forall y, In y rows -> ar_key x <> ar_key y).
  { intros y Hy Ey. rewrite Ey, (proj2 (mem_nat_In _ _) (in_map ar_key _ _ Hy)) in HD1. discriminate. }
  destruct Hr as [<-|Hr], Hr' as [<-|Hr']; [reflexivity | | | apply IH; assumption].
  - destruct (NI r' Hr' E).
  - destruct (NI r Hr (eq_sym E)).
Qed.

(* every state row outside the exception list: each alternative of the final
   atom set that resolves completely in the force field sums to the formal
   charge within tol *)
Theorem state_charge_sound : forall tol m exc rows,
  check_arows tol m exc rows = true ->
  forall r, In r rows -> ~ In (ar_key r) exc ->
  forall alt q, In alt (ar_alts r) -> resolve m (ar_ff r) alt = Some q ->
  Z.abs (q - ar_formal r * SCALE) <= tol.
Proof.
  intros tol m exc rows H r Hr Hk alt q Ha Hq. destruct (check_arows_parts _ _ _ _ H) as [H1 _].
  rewrite forallb_forall in H1. specialize (H1 r Hr). unfold arow_ok in H1.
  apply orb_true_iff in H1. destruct H1 as [H1|H1]; [apply mem_nat_In in H1; contradiction|].
  rewrite forallb_forall in H1. specialize (H1 alt Ha). unfold alt_ok in H1.
  rewrite Hq in H1. apply within_spec. exact H1.
Qed.

(* the exception list hides nothing but genuine failures *)
Theorem state_charge_exceptions_real : forall tol m exc rows,
  check_arows tol m exc rows = true ->
  forall k, In k exc ->
  exists r alt q, In r rows /\ ar_key r = k /\ In alt (ar_alts r) /\
                  resolve m (ar_ff r) alt = Some q /\ tol < Z.abs (q - ar_formal r * SCALE).
Proof.
  intros tol m exc rows H k Hk. destruct (check_arows_parts _ _ _ _ H) as [_ [_ H3]].
  unfold exc_tight in H3. rewrite forallb_forall in H3. specialize (H3 k Hk).
  apply existsb_exists in H3. destruct H3 as [r [Hr H3]].
  apply andb_true_iff in H3. destruct H3 as [Hkey Hbad].
  apply Nat.eqb_eq in Hkey. apply negb_true_iff in Hbad.
  apply forallb_false_exists in Hbad. destruct Hbad as [alt [Ha Hf]].
  unfold alt_ok in Hf. destruct (resolve m (ar_ff r) alt) as [q|] eqn:Eq; [|discriminate].
  exists r, alt, q. repeat split; try assumption. apply Z.leb_gt. exact Hf.
Qed.

Theorem state_charge_all : forall tol m rows,
  check_arows tol m [] rows = true ->
  forall r, In r rows ->
  forall alt q, In alt (ar_alts r) -> resolve m (ar_ff r) alt = Some q ->
  Z.abs (q - ar_formal r * SCALE) <= tol.
Proof. intros tol m rows H r Hr. apply (state_charge_sound tol m [] rows H r Hr). intros []. Qed.

Theorem state_charge_named : forall tol m exc rows names,
  check_arows tol m exc rows = true ->
  check_exception_names exc names rows = true ->
  forall r, In r rows -> ~ In (ar_name r) names ->
  forall alt q, In alt (ar_alts r) -> resolve m (ar_ff r) alt = Some q ->
  Z.abs (q - ar_formal r * SCALE) <= tol.
Proof.
  intros tol m exc rows names H HN r Hr Hnn. apply (state_charge_sound tol m exc rows H r Hr).
  intro Hk. apply Hnn. unfold check_exception_names in HN. apply andb_true_iff in HN. destruct HN as [HN _].
  rewrite forallb_forall in HN. specialize (HN r Hr). apply mem_nat_In in Hk. rewrite Hk in HN.
  apply existsb_exists in HN. destruct HN as [x [Hi He]]. apply sname_eqb_eq in He. subst. exact Hi.
Qed.

(* every named exception is a real failure of the full statement *)
Theorem state_charge_refuted_named : forall tol m exc rows names n,
  check_arows tol m exc rows = true ->
  check_exception_names exc names rows = true ->
  In n names ->
  exists r alt q, In r rows /\ ar_name r = n /\ In alt (ar_alts r) /\
                  resolve m (ar_ff r) alt = Some q /\ tol < Z.abs (q - ar_formal r * SCALE).
Proof.
  intros tol m exc rows names n H HN Hn.
  unfold check_exception_names in HN. apply andb_true_iff in HN. destruct HN as [_ HN].
  rewrite forallb_forall in HN. specialize (HN n Hn). apply existsb_exists in HN.
  destruct HN as [r0 [Hr0 Hb]]. apply andb_true_iff in Hb. destruct Hb as [Hk Hs].
  apply mem_nat_In in Hk. apply sname_eqb_eq in Hs.
  destruct (state_charge_exceptions_real tol m exc rows H (ar_key r0) Hk) as [r [alt [q [Hr [Hkey [Ha [Hq Hbad]]]]]]].
  destruct (check_arows_parts _ _ _ _ H) as [_ [HD _]].
  rewrite <- (keys_distinct_inj rows HD r r0 Hr Hr0 Hkey) in Hs.
  exists r, alt, q. repeat split; assumption.
Qed.

(* the model's set_state reproduces the real name on every recorded route *)
Theorem arows_names_sound : forall ids rows,
  forallb (arow_name_ok ids) rows = true ->
  forall r, In r rows ->
    (forall d, In d (ar_descs r) -> ffname_of d = Some (ar_name r)) /\
    ar_descs r <> [] /\
    assoc sname_eqb (ar_name r) ids = Some (ar_ff r).
Proof.
  intros ids rows H r Hr. rewrite forallb_forall in H. specialize (H r Hr).
  unfold arow_name_ok in H. apply andb_true_iff in H. destruct H as [H H3].
  apply andb_true_iff in H. destruct H as [H1 H2].
  split; [|split].
  - intros d Hd. rewrite forallb_forall in H1. specialize (H1 d Hd).
    unfold opt_sname_eqb in H1. destruct (ffname_of d) as [x|]; [|discriminate].
    apply sname_eqb_eq in H1. subst. reflexivity.
  - intro E. rewrite E in H2. discriminate H2.
  - unfold opt_id_eqb in H3. destruct (assoc sname_eqb (ar_name r) ids) as [x|]; [|discriminate].
    apply Pos.eqb_eq in H3. subst. reflexivity.
Qed.

Theorem water_sound : forall tol m wat atoms,
  check_water tol m wat atoms = true ->
  exists q, resolve m wat atoms = Some q /\ Z.abs q <= tol.
Proof.
  intros tol m wat atoms H. unfold check_water in H.
  destruct (resolve m wat atoms) as [q|]; [|discriminate].
  exists q. split; [reflexivity|]. apply within_spec in H. rewrite Z.sub_0_r in H. exact H.
Qed.

(* --neutraln / --neutralc shift the charge by exactly one unit (C09) *)
Theorem neutral_shift_table : forall m exc rows,
  check_neutral_shift m exc rows = true ->
  forall r1 r2 s, In r1 rows -> In r2 rows ->
    ar_cls r1 = ar_cls r2 -> ar_state r1 = ar_state r2 -> ~ In (ar_key r2) exc ->
    shift_of (ar_term r1) (ar_term r2) = Some s ->
    forall q1 q2, In q1 (row_charges m r1) -> In q2 (row_charges m r2) -> q2 = q1 + s * SCALE.
Proof.
  intros m exc rows H r1 r2 s H1 H2 Ec Es Hk Hs q1 q2 Hq1 Hq2.
  unfold check_neutral_shift in H. rewrite forallb_forall in H. specialize (H r1 H1).
  rewrite forallb_forall in H. specialize (H r2 H2).
  unfold same_residue, base_eqb in H. rewrite Ec, Es, !Nat.eqb_refl in H.
  assert (M : mem_nat (ar_key r2) exc = false).
  { destruct (mem_nat (ar_key r2) exc) eqn:E; [|reflexivity]. apply mem_nat_In in E. contradiction. }
  rewrite M, Hs in H. cbn [andb negb] in H.
  rewrite forallb_forall in H. specialize (H q1 Hq1). rewrite forallb_forall in H. specialize (H q2 Hq2).
  apply Z.eqb_eq in H. exact H.
Qed.

Theorem neutral_absent_table : forall m rows,
  check_neutral_absent m rows = true ->
  forall r, In r rows -> is_neutral_name (ar_name r) = true ->
  forall alt a, In alt (ar_alts r) -> In a alt -> lookup m (ar_ff r) a = None.
Proof.
  intros m rows H r Hr Hn alt a Ha Hi. unfold check_neutral_absent in H.
  rewrite forallb_forall in H. specialize (H r Hr). rewrite Hn in H.
  rewrite forallb_forall in H. specialize (H alt Ha). rewrite forallb_forall in H. specialize (H a Hi).
  destruct (lookup m (ar_ff r) a); [discriminate H | reflexivity].
Qed.

Lemma zsum_cons x l : zsum (x :: l) = x + zsum l.
Proof. reflexivity. Qed.

Lemma zsum_app a b : zsum (a ++ b) = zsum a + zsum b.
Proof. induction a as [|x a IH]; cbn [app]; rewrite ?zsum_cons, ?IH; [reflexivity | lia]. Qed.

Definition phosphates (rs : list nrow) : nat := List.length (filter nr_phos rs).

Section Strand.
  Variable tol : Z.
  Variable mixed : bool.
  Variable m : ffmap.
  Variable rows : list nrow.
  Hypothesis Hcheck : check_strand tol mixed m rows = true.

  Lemma strand_internal : forall r q, In r rows -> is_internal r = true ->
    In q (nrow_charges m r) -> Z.abs (q + SCALE) <= tol.
  Proof.
    intros r q Hr Hi Hq. unfold check_strand in Hcheck.
    apply andb_true_iff in Hcheck. destruct Hcheck as [H _].
    apply andb_true_iff in H. destruct H as [H _].
    rewrite forallb_forall in H. specialize (H r Hr). rewrite Hi in H.
    rewrite forallb_forall in H. specialize (H q Hq). apply within_spec in H.
    replace (q + SCALE) with (q - - SCALE) by lia. exact H.
  Qed.

  Lemma strand_ends : forall r5 r3 q5 q3, In r5 rows -> In r3 rows ->
    is_five r5 = true -> is_three r3 = true -> pairable mixed r5 r3 = true ->
    In q5 (nrow_charges m r5) -> In q3 (nrow_charges m r3) ->
    Z.abs (q5 + q3 + SCALE) <= tol.
  Proof.
    intros r5 r3 q5 q3 H5 H3 F5 F3 Hp Hq5 Hq3. unfold check_strand in Hcheck.
    apply andb_true_iff in Hcheck. destruct Hcheck as [H _].
    apply andb_true_iff in H. destruct H as [_ H].
    rewrite forallb_forall in H. specialize (H r5 H5). rewrite F5 in H.
    rewrite forallb_forall in H. specialize (H r3 H3). rewrite F3, Hp in H. cbn [andb] in H.
    rewrite forallb_forall in H. specialize (H q5 Hq5).
    rewrite forallb_forall in H. specialize (H q3 Hq3). apply within_spec in H.
    replace (q5 + q3 + SCALE) with (q5 + q3 - - SCALE) by lia. exact H.
  Qed.

  Lemma strand_phos : forall r, In r rows -> nr_phos r = negb (nr_five r).
  Proof.
    intros r Hr. unfold check_strand in Hcheck.
    apply andb_true_iff in Hcheck. destruct Hcheck as [_ H].
    rewrite forallb_forall in H. specialize (H r Hr). apply eqb_prop in H. exact H.
  Qed.

  Lemma mids_charge : forall mids qmids,
    Forall (fun r => In r rows /\ is_internal r = true) mids ->
    Forall2 (fun r q => In q (nrow_charges m r)) mids qmids ->
    Z.abs (zsum qmids + Z.of_nat (List.length mids) * SCALE) <= Z.of_nat (List.length mids) * tol.
  Proof.
    intros mids qmids Hm H2. induction H2 as [|r q mids qmids Hq H2 IH].
    - cbn. lia.
    - inversion Hm as [|? ? [Hr Hi] Hm']; subst. specialize (IH Hm').
      pose proof (strand_internal r q Hr Hi Hq) as H1.
      cbn [List.length]. rewrite Nat2Z.inj_succ, !Z.mul_succ_l, zsum_cons. lia.
  Qed.

  Lemma mids_phos : forall mids,
    Forall (fun r => In r rows /\ is_internal r = true) mids ->
    filter nr_phos mids = mids.
  Proof.
    intros mids Hm. induction Hm as [|r mids [Hr Hi] Hm IH]; [reflexivity|].
    cbn [filter]. rewrite (strand_phos r Hr). unfold is_internal in Hi.
    apply andb_true_iff in Hi. destruct Hi as [Hi _]. rewrite Hi. rewrite IH. reflexivity.
  Qed.

  (* a strand = 5' nucleotide, any number of internal ones, 3' nucleotide;
     every residue charge is the charge of one resolvable alternative of its row *)
  Theorem strand_charge : forall r5 mids r3 q5 qmids q3,
    In r5 rows -> In r3 rows -> Forall (fun r => In r rows /\ is_internal r = true) mids ->
    is_five r5 = true -> is_three r3 = true -> pairable mixed r5 r3 = true ->
    In q5 (nrow_charges m r5) -> In q3 (nrow_charges m r3) ->
    Forall2 (fun r q => In q (nrow_charges m r)) mids qmids ->
    let p := phosphates (r5 :: mids ++ [r3]) in
    p = S (List.length mids) /\
    Z.abs (zsum (q5 :: qmids ++ [q3]) + Z.of_nat p * SCALE) <= Z.of_nat p * tol.
  Proof.
    intros r5 mids r3 q5 qmids q3 H5 H3 Hm F5 F3 Hp Hq5 Hq3 H2. cbn zeta.
    assert (P : phosphates (r5 :: mids ++ [r3]) = S (List.length mids)).
    { unfold phosphates. cbn [filter]. rewrite (strand_phos r5 H5).
      unfold is_five in F5. apply andb_true_iff in F5. destruct F5 as [F5 _]. rewrite F5. cbn [negb].
      rewrite filter_app. rewrite (mids_phos mids Hm). cbn [filter]. rewrite (strand_phos r3 H3).
      unfold is_three in F3. apply andb_true_iff in F3. destruct F3 as [_ F3]. rewrite F3.
      rewrite app_length. cbn [List.length]. lia. }
    split; [exact P|]. rewrite P.
    pose proof (mids_charge mids qmids Hm H2) as Hmid.
    pose proof (strand_ends r5 r3 q5 q3 H5 H3 F5 F3 Hp Hq5 Hq3) as Hend.
    rewrite Nat2Z.inj_succ, !Z.mul_succ_l, zsum_cons, zsum_app, zsum_cons. change (zsum []) with 0. lia.
  Qed.
End Strand.

Theorem strand_charge_exact : forall m rows,
  check_strand 0 false m rows = true ->
  forall r5 mids r3 q5 qmids q3,
    In r5 rows -> In r3 rows -> Forall (fun r => In r rows /\ is_internal r = true) mids ->
    is_five r5 = true -> is_three r3 = true -> pairable false r5 r3 = true ->
    In q5 (nrow_charges m r5) -> In q3 (nrow_charges m r3) ->
    Forall2 (fun r q => In q (nrow_charges m r)) mids qmids ->
    phosphates (r5 :: mids ++ [r3]) = S (List.length mids) /\
    zsum (q5 :: qmids ++ [q3]) = - Z.of_nat (phosphates (r5 :: mids ++ [r3])) * SCALE.
Proof.
  intros m rows H r5 mids r3 q5 qmids q3 H5 H3 Hm F5 F3 Hp Hq5 Hq3 H2.
  destruct (strand_charge 0 false m rows H r5 mids r3 q5 qmids q3 H5 H3 Hm F5 F3 Hp Hq5 Hq3 H2) as [P B].
  split; [exact P|]. rewrite Z.mul_0_r in B. lia.
Qed.

Lemma int_dist_near : forall t k e,
  Z.abs (t - k * SCALE) <= e -> 2 * e <= SCALE -> int_dist t <= e.
Proof.
  intros t k e H He. unfold int_dist, SCALE in *.
  pose proof (Z.mod_pos_bound t 100000000 ltac:(lia)) as Hb.
  pose proof (Z.div_mod t 100000000 ltac:(lia)) as Hd.
  set (q := t / 100000000) in *. set (r := t mod 100000000) in *.
  assert (Hr : r = t - k * 100000000 + (k - q) * 100000000) by lia.
  destruct (Z.eq_dec (k - q) 0) as [E|E]; [lia|].
  destruct (Z.eq_dec (k - q) 1) as [E1|E1]; [lia|].
  lia.
Qed.

Theorem guard_ok_near : forall t k, Z.abs (t - k * SCALE) <= TOL -> guard_ok t = true.
Proof.
  intros t k H. unfold guard_ok. apply Z.leb_le. apply (int_dist_near t k TOL H).
  unfold TOL, SCALE. lia.
Qed.

Lemma guard_ok_int k : guard_ok (k * SCALE) = true.
Proof. apply (guard_ok_near _ k). rewrite Z.sub_diag. discriminate. Qed.

Theorem total_within : forall e (rs : list (list Z)) (formals : list Z),
  Forall2 (fun r f => Z.abs (res_charge r - f * SCALE) <= e) rs formals ->
  Z.abs (total_charge rs - zsum formals * SCALE) <= Z.of_nat (List.length rs) * e.
Proof.
  intros e rs formals H. unfold total_charge. induction H as [|r f rs fs Hr H IH]; [cbn; lia|].
  cbn [map List.length]. rewrite Nat2Z.inj_succ, Z.mul_succ_l, !zsum_cons. lia.
Qed.

(* the total is the integer sum of the residues' formal charges, so the
   integrality guard of main.py cannot fire *)
Theorem total_is_sum : forall (rs : list (list Z)) (formals : list Z),
  Forall2 (fun r f => res_charge r = f * SCALE) rs formals ->
  total_charge rs = zsum formals * SCALE /\ guard_ok (total_charge rs) = true.
Proof.
  intros rs formals H.
  assert (E : total_charge rs = zsum formals * SCALE).
  { assert (H0 : Forall2 (fun r f => Z.abs (res_charge r - f * SCALE) <= 0) rs formals).
    { induction H as [|r f rs fs Hr H IH]; constructor; [lia | exact IH]. }
    pose proof (total_within 0 rs formals H0). lia. }
  split; [exact E|]. rewrite E. apply guard_ok_int.
Qed.

Lemma round4_fix q : q mod 10000 = 0 -> round4 q = q.
Proof. intro H. unfold round4. Z.div_mod_to_equations. lia. Qed.

Lemma round4_map qs : Forall (fun q => q mod 10000 = 0) qs -> map round4 qs = qs.
Proof. intro H. induction H as [|q qs Hq H IH]; [reflexivity|]. cbn [map]. rewrite (round4_fix q Hq), IH. reflexivity. Qed.

Lemma zsum_perm : forall a b, Permutation a b -> zsum a = zsum b.
Proof.
  intros a b P. unfold zsum. induction P as [|x a b P IH|x y a|a b c P1 IH1 P2 IH2]; cbn [fold_right]; try lia.
Qed.

(* what a structure is made of, as far as charges go: amino-acid residues in a state row,
   waters, complete strands; each with the exact charge of its residues *)
Inductive cunit :=
| UAmino (r : arow) (alt : list id) (q : Z)
| UWater (q : Z)
| UStrand (r5 : nrow) (mids : list nrow) (r3 : nrow) (q5 : Z) (qmids : list Z) (q3 : Z).

Definition unit_charges (u : cunit) : list Z :=
  match u with
  | UAmino _ _ q => [q]
  | UWater q => [q]
  | UStrand _ _ _ q5 qmids q3 => (q5 :: qmids ++ [q3])%list
  end.

(* every residue is in a fully parameterised state of the tables *)
Definition unit_valid (m : ffmap) (exc : list nat) (arows : list arow) (nrows : list nrow)
                      (wat : id) (watoms : list id) (u : cunit) : Prop :=
  match u with
  | UAmino r alt q => In r arows /\ ~ In (ar_key r) exc /\ In alt (ar_alts r) /\ resolve m (ar_ff r) alt = Some q
  | UWater q => resolve m wat watoms = Some q
  | UStrand r5 mids r3 q5 qmids q3 =>
      In r5 nrows /\ In r3 nrows /\ Forall (fun r => In r nrows /\ is_internal r = true) mids /\
      is_five r5 = true /\ is_three r3 = true /\ pairable false r5 r3 = true /\
      In q5 (nrow_charges m r5) /\ In q3 (nrow_charges m r3) /\
      Forall2 (fun r q => In q (nrow_charges m r)) mids qmids
  end.

Section Guard.
  Variable m : ffmap.
  Variable exc : list nat.
  Variable arows : list arow.
  Variable nrows : list nrow.
  Variable wat : id.
  Variable watoms : list id.
  Hypothesis HA : check_arows 0 m exc arows = true.
  Hypothesis HS : check_strand 0 false m nrows = true.
  Hypothesis HR : check_round4 m nrows = true.
  Hypothesis HW : check_water 0 m wat watoms = true.

  Lemma nrow_mult4 : forall r q, In r nrows -> In q (nrow_charges m r) -> q mod 10000 = 0.
  Proof.
    intros r q Hr Hq. unfold check_round4 in HR. rewrite forallb_forall in HR. specialize (HR r Hr).
    rewrite forallb_forall in HR. specialize (HR q Hq). apply Z.eqb_eq in HR. exact HR.
  Qed.

  Lemma unit_integral : forall u, unit_valid m exc arows nrows wat watoms u ->
    exists k, zsum (map round4 (unit_charges u)) = k * SCALE.
  Proof.
    intros [r alt q|q|r5 mids r3 q5 qmids q3] V; cbn [unit_valid unit_charges] in *.
    - destruct V as [Hr [Hk [Ha Hq]]].
      pose proof (state_charge_sound 0 m exc arows HA r Hr Hk alt q Ha Hq) as B.
      exists (ar_formal r). assert (E : q = ar_formal r * SCALE) by lia. subst q.
      cbn [map]. rewrite round4_fix; [unfold zsum; cbn [fold_right]; lia|].
      unfold SCALE. Z.div_mod_to_equations. lia.
    - exists 0. unfold check_water in HW. rewrite V in HW. apply within_spec in HW.
      assert (E : q = 0) by lia. subst q. reflexivity.
    - destruct V as [H5 [H3 [Hm [F5 [F3 [Hp [Hq5 [Hq3 H2]]]]]]]].
      destruct (strand_charge_exact m nrows HS r5 mids r3 q5 qmids q3 H5 H3 Hm F5 F3 Hp Hq5 Hq3 H2) as [_ E].
      exists (- Z.of_nat (phosphates (r5 :: mids ++ [r3]))).
      rewrite round4_map; [exact E|].
      constructor; [apply (nrow_mult4 r5 q5 H5 Hq5)|]. apply Forall_app. split.
      + clear - H2 Hm HR. induction H2 as [|r q mids qmids Hq H2 IH]; [constructor|].
        inversion Hm as [|? ? [Hr _] Hm']; subst. constructor; [apply (nrow_mult4 r q Hr Hq) | apply IH; exact Hm'].
      + constructor; [apply (nrow_mult4 r3 q3 H3 Hq3) | constructor].
  Qed.

  Lemma units_integral : forall units, Forall (unit_valid m exc arows nrows wat watoms) units ->
    exists k, zsum (map round4 (List.concat (map unit_charges units))) = k * SCALE.
  Proof.
    intros units H. induction H as [|u units Hu H IH]; [exists 0; reflexivity|].
    destruct IH as [k1 E1]. destruct (unit_integral u Hu) as [k2 E2].
    exists (k2 + k1). cbn [map List.concat]. rewrite map_app, zsum_app, E1, E2. lia.
  Qed.

  (* ALL residue lists whose residues are in fully parameterised table states (in any
     order): the total handed to noninteger_charge - the sum of the per-residue charges
     rounded to 4 decimals, in exact decimal arithmetic - is an integer, so the guard of
     main.non_trivial does not raise; the same holds for any value within the guard's
     tolerance of that total (float summation error) *)
  Theorem guard_never_fires : forall units qs,
    Forall (unit_valid m exc arows nrows wat watoms) units ->
    Permutation qs (List.concat (map unit_charges units)) ->
    (exists k, guard_total qs = k * SCALE) /\
    guard_raises qs = false /\
    (forall t, Z.abs (t - guard_total qs) <= TOL -> guard_ok t = true).
  Proof using HA HS HR HW.
    intros units qs V P. destruct (units_integral units V) as [k E].
    assert (G : guard_total qs = k * SCALE).
    { unfold guard_total. rewrite (zsum_perm _ _ (Permutation_map round4 P)). exact E. }
    split; [exists k; exact G|]. split.
    - unfold guard_raises. rewrite G, guard_ok_int. reflexivity.
    - intros t Ht. apply (guard_ok_near t k). rewrite <- G. exact Ht.
  Qed.
End Guard.

Local Close Scope Z_scope.

(* terminus prefix: N-terminus first (a one-residue chain gets only the N
   prefix), NEUTRAL- only with the neutral patch, never for an N-terminal PRO *)
Definition spec_prefix (d : adesc) : prefix :=
  if ad_nterm d then
    match ad_cls d with
    | C_PRO => PN
    | _ => if has_patch P_NEUTRAL_NTERM d then PNN else PN
    end
  else if ad_cterm d then (if has_patch P_NEUTRAL_CTERM d then PNC else PC)
  else PNone.

Definition named (p : patch) (b : base) (d : adesc) : bool := has_patch p d || name_is b d.

(* side-chain state: None = HIS with no ring hydrogen left (TypeError) *)
Definition spec_base (d : adesc) : option base :=
  match ad_cls d with
  | C_ARG => Some (if named P_AR0 B_AR0 d then B_AR0 else ad_name d)
  | C_ASP => Some (if named P_ASH B_ASH d then B_ASH else ad_name d)
  | C_GLU => Some (if named P_GLH B_GLH d then B_GLH else ad_name d)
  | C_LYS => Some (if named P_LYN B_LYN d then B_LYN else ad_name d)
  | C_TYR => Some (if named P_TYM B_TYM d then B_TYM else ad_name d)
  | C_CYS => Some (if named P_CYX B_CYX d || ad_ss d then B_CYX
                   else if named P_CYM B_CYM d then B_CYM
                   else if negb (ad_hg d) then B_CYX else ad_name d)
  | C_HIS => match his_atoms d with
             | (true, true) => Some B_HIP
             | (true, false) => Some B_HID
             | (false, true) => Some B_HIE
             | (false, false) => None
             end
  | _ => Some (ad_name d)
  end.

(* the two terminus functions of aa.py put the same prefix in front of whatever side-chain
   name they are given *)
Lemma amino_term_spec d f : ad_cls d <> C_PRO -> amino_term d f = (spec_prefix d, f).
Proof.
  intro C. unfold amino_term, spec_prefix. destruct (ad_nterm d).
  - destruct (ad_cls d); try (destruct (has_patch P_NEUTRAL_NTERM d); reflexivity). destruct C. reflexivity.
  - destruct (ad_cterm d); [destruct (has_patch P_NEUTRAL_CTERM d)|]; reflexivity.
Qed.

Lemma pro_term_spec d f : ad_cls d = C_PRO -> pro_term d f = (spec_prefix d, f).
Proof.
  intro C. unfold pro_term, spec_prefix. rewrite C. destruct (ad_nterm d); [reflexivity|].
  destruct (ad_cterm d); [destruct (has_patch P_NEUTRAL_CTERM d)|]; reflexivity.
Qed.

(* after that the side-chain conditions of set_state and spec_base coincide as written *)
Theorem set_state_spec : forall d : adesc,
  ffname_of d = match spec_base d with Some b => Some (spec_prefix d, b) | None => None end.
Proof.
  intro d. unfold ffname_of, set_state, spec_base, named, plain.
  destruct (ad_cls d) eqn:C; cbn [sr_name];
    lazymatch type of C with
    | _ = C_PRO => exact (f_equal Some (pro_term_spec d _ C))
    | _ = C_HIS => destruct (his_atoms d) as [[|] [|]]; cbn [andb sr_name]; [| | |reflexivity]
    | _ => idtac
    end.
  all: rewrite amino_term_spec by (rewrite C; discriminate); reflexivity.
Qed.

Theorem one_residue_chain_gets_N_only : forall d p b,
  ad_nterm d = true -> ffname_of d = Some (p, b) -> p = PN \/ p = PNN.
Proof.
  intros d p b Hn H. rewrite set_state_spec in H. destruct (spec_base d); [|discriminate].
  inversion H; subst. unfold spec_prefix. rewrite Hn.
  destruct (ad_cls d); try (destruct (has_patch P_NEUTRAL_NTERM d); [right|left]; reflexivity).
  left; reflexivity.
Qed.

Theorem nterm_pro_is_NPRO : forall d,
  ad_cls d = C_PRO -> ad_nterm d = true -> ffname_of d = Some (PN, ad_name d).
Proof.
  intros d Hc Hn. rewrite set_state_spec. unfold spec_base, spec_prefix. rewrite Hc, Hn. reflexivity.
Qed.

Theorem nuc_state_flags : forall d, nuc_state d = (fst (fst (nuc_state d)), nd_five d, nd_three d).
Proof. intro d. unfold nuc_state. reflexivity. Qed.

(* Proved for ALL chain lists, options and cyclic predicates:
     - per chain (assign_spec): a non-cyclic chain gets exactly one N/5' flag,
       on its head iff the head is an amino acid / nucleotide, and exactly one
       C/3' flag iff the search from the chain end reaches a polymer residue
       before an NH2/NME cap; every flag comes with exactly one patch; a cyclic
       chain is left untouched;
     - set_termini without hidden chain ends (termini_once): the same for every
       chain of the list, whatever the chain count, chain ids and residue ids;
     - set_termini in general, hidden chain ends included (termini_general):
       residues are neither lost, duplicated nor reordered by the splitting, and
       every resulting segment satisfies seg_ok and seg_full below.
   NOT true in general: "a cyclic segment carries no flag" after a hidden-end split
   (cyclic_after_split_refuted); a patch may then also be applied twice (ex_hidden). *)

Definition nflag (r : rstate) : bool := rs_n r || rs_5 r.
Definition cflag (r : rstate) : bool := rs_c r || rs_3 r.
Definition b2n (b : bool) : nat := if b then 1 else 0.
Definition is_poly (r : rstate) : bool :=
  match rd_kind (rs_d r) with KAmino | KNucleic => true | _ => false end.
Definition patches_match (r : rstate) : Prop :=
  List.length (rs_patches r) = b2n (nflag r) + b2n (cflag r).
Definition unflagged (r : rstate) : Prop := nflag r = false /\ cflag r = false /\ rs_patches r = [].
Definition kind_ok (r : rstate) : Prop :=
  (rs_n r = true \/ rs_c r = true -> rd_kind (rs_d r) = KAmino) /\
  (rs_5 r = true \/ rs_3 r = true -> rd_kind (rs_d r) = KNucleic).

(* the patch a residue receives with a flag is a function of options and descriptor *)
Definition npatch (o : opts) (r : rstate) : patch :=
  if o_neutraln o || rd_nheavy2 (rs_d r) then P_NEUTRAL_NTERM else P_NTERM.
Definition cpatch (o : opts) : patch := if o_neutralc o then P_NEUTRAL_CTERM else P_CTERM.

(* the SET of patches is determined by the flags (the list may repeat them) *)
Definition patch_set_ok (o : opts) (r : rstate) : Prop :=
  forall p, In p (rs_patches r) <->
    (rs_n r = true /\ p = npatch o r) \/ (rs_c r = true /\ p = cpatch o) \/
    (rs_5 r = true /\ p = P_5TERM) \/ (rs_3 r = true /\ p = P_3TERM).

Lemma unflagged_c r : unflagged r -> cflag r = false.
Proof. intros [_ [H _]]. exact H. Qed.

Lemma unflagged_pm r : unflagged r -> patches_match r.
Proof. intros [Hn [Hc Hp]]. unfold patches_match. rewrite Hn, Hc, Hp. reflexivity. Qed.

Lemma unflagged_flags r : unflagged r ->
  rs_n r = false /\ rs_5 r = false /\ rs_c r = false /\ rs_3 r = false /\ rs_patches r = [].
Proof.
  intros [Hn [Hc Hp]]. apply orb_false_iff in Hn. apply orb_false_iff in Hc. tauto.
Qed.

Lemma unflagged_kind r : unflagged r -> kind_ok r.
Proof.
  intro U. destruct (unflagged_flags r U) as [Hn [H5 [Hc [H3 _]]]].
  unfold kind_ok. rewrite Hn, Hc, H5, H3. split; intros [X|X]; discriminate X.
Qed.

Lemma unflagged_ps o r : unflagged r -> patch_set_ok o r.
Proof.
  intros U p. destruct (unflagged_flags r U) as [Hn [H5 [Hc [H3 Hp]]]]. rewrite Hn, H5, Hc, H3, Hp.
  split; [intros [] | intros [[X _]|[[X _]|[[X _]|[X _]]]]; discriminate X].
Qed.

Lemma is_poly_d a b : rs_d a = rs_d b -> is_poly a = is_poly b.
Proof. unfold is_poly. intro H. rewrite H. reflexivity. Qed.

Definition count (f : rstate -> bool) (l : list rstate) : nat := List.length (filter f l).

Lemma count_cons f a l : count f (a :: l) = b2n (f a) + count f l.
Proof. unfold count. cbn [filter]. destruct (f a); reflexivity. Qed.

Lemma count_app f a b : count f (a ++ b) = count f a + count f b.
Proof. unfold count. rewrite filter_app, app_length. reflexivity. Qed.

Lemma count_rev f l : count f (rev l) = count f l.
Proof.
  induction l as [|a l IH]; [reflexivity|]. cbn [rev]. rewrite count_app, IH, !count_cons.
  change (count f []) with 0. lia.
Qed.

Lemma count_zero f l : Forall (fun r => f r = false) l -> count f l = 0.
Proof. intro H. induction H as [|a l Ha H IH]; [reflexivity|]. rewrite count_cons, Ha. exact IH. Qed.

Definition hd_nflag (c : list rstate) : bool := match c with [] => false | r :: _ => nflag r end.

Lemma count_hd c : Forall (fun r => nflag r = false) (tl c) -> count nflag c = b2n (hd_nflag c).
Proof.
  destruct c as [|r t]; [reflexivity|]. cbn [tl hd_nflag]. intro H.
  rewrite count_cons, (count_zero _ _ H). apply Nat.add_0_r.
Qed.

(* two lists that agree under a projection f agree in everything that reads f only *)
Lemma count_map_eq f a b : map f a = map f b -> count f a = count f b.
Proof.
  intro H. apply map_eq_Forall2 in H. induction H as [|x y a b E _ IH]; [reflexivity|].
  rewrite !count_cons, E, IH. reflexivity.
Qed.

Lemma hd_nflag_map a b : map nflag a = map nflag b -> hd_nflag a = hd_nflag b.
Proof. intro H. apply map_eq_Forall2 in H. destruct H; [reflexivity | assumption]. Qed.

(* does the search from the chain end (list given reversed) reach a polymer
   residue before an NH2/NME cap? *)
Fixpoint c_found (l : list rstate) : bool :=
  match l with
  | [] => false
  | r :: t => if is_poly r then true else if rd_cap (rs_d r) then false else c_found t
  end.
Definition has_c_end (l : list rstate) : bool := c_found (rev l).
Definition head_poly (l : list rstate) : bool := match l with [] => false | r :: _ => is_poly r end.

Lemma c_found_d a b : map rs_d a = map rs_d b -> c_found a = c_found b.
Proof.
  intro H. apply map_eq_Forall2 in H. induction H as [|x y a b E _ IH]; [reflexivity|].
  cbn [c_found]. rewrite (is_poly_d x y E), E, IH. reflexivity.
Qed.

Lemma has_c_end_d a b : map rs_d a = map rs_d b -> has_c_end a = has_c_end b.
Proof. intro H. unfold has_c_end. apply c_found_d. rewrite !map_rev, H. reflexivity. Qed.

Lemma head_poly_d a b : map rs_d a = map rs_d b -> head_poly a = head_poly b.
Proof. intro H. apply map_eq_Forall2 in H. destruct H; [reflexivity | apply is_poly_d; assumption]. Qed.

Lemma find_d (p : rdesc -> bool) a b : map rs_d a = map rs_d b ->
  option_map rs_d (find (fun r => p (rs_d r)) a) = option_map rs_d (find (fun r => p (rs_d r)) b).
Proof.
  intro H. apply map_eq_Forall2 in H. induction H as [|x y a b E _ IH]; [reflexivity|].
  cbn [find]. rewrite E. destruct (p (rs_d y)); [cbn; rewrite E; reflexivity | exact IH].
Qed.

Lemma cyclic_d close a b : map rs_d a = map rs_d b -> cyclic close a = cyclic close b.
Proof.
  intro H. unfold cyclic, first_N, last_C.
  pose proof (find_d rd_hasN a b H) as E1.
  assert (Hr : map rs_d (rev a) = map rs_d (rev b)) by (rewrite !map_rev, H; reflexivity).
  pose proof (find_d rd_hasC (rev a) (rev b) Hr) as E2.
  destruct (find (fun r => rd_hasN (rs_d r)) a), (find (fun r => rd_hasN (rs_d r)) b); cbn in E1; try discriminate; [|reflexivity].
  destruct (find (fun r => rd_hasC (rs_d r)) (rev a)), (find (fun r => rd_hasC (rs_d r)) (rev b)); cbn in E2; try discriminate; [|reflexivity].
  injection E1 as E1. injection E2 as E2. rewrite E1, E2. reflexivity.
Qed.

Definition cclear (r : rstate) : Prop := cflag r = false.

(* over the REVERSED segment: a C/3' flag can only sit on the first polymer residue met from
   the end, and only if no NH2/NME cap comes before it *)
Fixpoint c_ok (l : list rstate) : Prop :=
  match l with
  | [] => True
  | r :: t => if is_poly r then Forall cclear t
              else cflag r = false /\ (if rd_cap (rs_d r) then Forall cclear t else c_ok t)
  end.

Lemma c_ok_clear : forall l, Forall cclear l -> c_ok l.
Proof.
  induction l as [|r t IH]; intro H; [exact I|]. inversion H as [|? ? Hr Ht]; subst. cbn [c_ok].
  destruct (is_poly r); [exact Ht|]. split; [exact Hr|]. destruct (rd_cap (rs_d r)); [exact Ht | apply IH; exact Ht].
Qed.

Lemma c_ok_prefix : forall a b, c_ok (a ++ b) -> c_ok a.
Proof.
  induction a as [|r a IH]; intros b H; [exact I|]. cbn [app c_ok] in *.
  destruct (is_poly r).
  - apply Forall_app in H. apply H.
  - destruct H as [Hr H]. split; [exact Hr|]. destruct (rd_cap (rs_d r)).
    + apply Forall_app in H. apply H.
    + apply (IH b). exact H.
Qed.

Lemma c_ok_after : forall p r s, c_ok (p ++ r :: s) -> is_poly r = true -> Forall cclear s.
Proof.
  induction p as [|x p IH]; intros r s H Hr; cbn [app c_ok] in H.
  - rewrite Hr in H. exact H.
  - destruct (is_poly x).
    + apply Forall_app in H. destruct H as [_ H]. inversion H; assumption.
    + destruct H as [_ H]. destruct (rd_cap (rs_d x)).
      * apply Forall_app in H. destruct H as [_ H]. inversion H; assumption.
      * apply (IH r s H Hr).
Qed.

Lemma c_ok_ext : forall a b,
  map (fun r => (cflag r, rs_d r)) a = map (fun r => (cflag r, rs_d r)) b -> c_ok a -> c_ok b.
Proof.
  induction a as [|x a IH]; destruct b as [|y b]; cbn [map]; intros E H; try discriminate; [exact I|].
  injection E as Ec Ed Et. cbn [c_ok] in *. rewrite <- (is_poly_d x y Ed), <- Ed, <- Ec.
  pose proof (map_eq_Forall _ (fun p => fst p = false) a b Et) as CT.
  destruct (is_poly x); [exact (CT H)|]. destruct H as [Hx H]. split; [exact Hx|].
  destruct (rd_cap (rs_d x)); [exact (CT H) | exact (IH b Et H)].
Qed.

Lemma c_ok_count : forall l, c_ok l -> count cflag l <= 1.
Proof.
  induction l as [|r t IH]; intro H; [cbn; lia|]. cbn [c_ok] in H. rewrite count_cons.
  destruct (is_poly r).
  - rewrite (count_zero _ _ H). destruct (cflag r); cbn; lia.
  - destruct H as [Hr H]. rewrite Hr. cbn [b2n plus]. destruct (rd_cap (rs_d r)).
    + rewrite (count_zero _ _ H). lia.
    + apply IH. exact H.
Qed.

(* what holds of EVERY chain segment set_termini produces *)
Definition seg_ok (o : opts) (c : list rstate) : Prop :=
  Forall kind_ok c /\ Forall (patch_set_ok o) c /\
  Forall (fun r => nflag r = false) (tl c) /\ c_ok (rev c).

(* a segment that is not cyclic has its ends flagged *)
Definition seg_full (close : nat -> nat -> bool) (c : list rstate) : Prop :=
  cyclic close c = false ->
  hd_nflag c = head_poly c /\ count cflag c = b2n (has_c_end c).

Lemma unflagged_seg_ok o l : Forall unflagged l -> seg_ok o l.
Proof.
  intro U. split; [|split; [|split]].
  - exact (Forall_impl _ unflagged_kind U).
  - exact (Forall_impl _ (unflagged_ps o) U).
  - apply Forall_tl. eapply Forall_impl; [|exact U]. intros a [Ha _]. exact Ha.
  - apply c_ok_clear, Forall_rev. exact (Forall_impl _ unflagged_c U).
Qed.

(* the only change the search ever makes: flag + patch on an amino acid or a nucleotide *)
Lemma c_action_set o r r' : c_action o r = CSet r' ->
  (rd_kind (rs_d r) = KAmino /\
   r' = mkrs (rs_d r) (rs_n r) true (rs_5 r) (rs_3 r) (rs_patches r ++ [cpatch o]) (rs_chain r)) \/
  (rd_kind (rs_d r) = KNucleic /\
   r' = mkrs (rs_d r) (rs_n r) (rs_c r) (rs_5 r) true (rs_patches r ++ [P_3TERM]) (rs_chain r)).
Proof.
  unfold c_action, cpatch. destruct (rd_kind (rs_d r)); try destruct (rd_cap (rs_d r));
    intro E; inversion E; auto.
Qed.

Lemma c_action_cases o r :
  match c_action o r with
  | CSet r' => is_poly r = true /\ is_poly r' = true /\ cflag r' = true
  | CStop => is_poly r = false /\ rd_cap (rs_d r) = true
  | CNext => is_poly r = false /\ rd_cap (rs_d r) = false
  end.
Proof.
  unfold c_action, is_poly, cflag. destruct (rd_kind (rs_d r)) eqn:K; cbn [rs_d rs_c rs_3]; rewrite ?K;
    try destruct (rd_cap (rs_d r)); auto using orb_true_r.
Qed.

Lemma c_action_d o r r' : c_action o r = CSet r' -> rs_d r' = rs_d r.
Proof. intro E. destruct (c_action_set o r r' E) as [[_ ->]|[_ ->]]; reflexivity. Qed.

Lemma c_action_nflag o r r' : c_action o r = CSet r' -> nflag r' = nflag r.
Proof. intro E. destruct (c_action_set o r r' E) as [[_ ->]|[_ ->]]; reflexivity. Qed.

Lemma c_action_kind o r r' : c_action o r = CSet r' -> kind_ok r -> kind_ok r'.
Proof.
  intros E [K1 K2]. destruct (c_action_set o r r' E) as [[K ->]|[K ->]];
    split; cbn [rs_d rs_n rs_c rs_5 rs_3]; auto.
Qed.

Lemma c_action_ps o r r' : c_action o r = CSet r' -> patch_set_ok o r -> patch_set_ok o r'.
Proof.
  intros E H p. specialize (H p). unfold npatch in *.
  destruct (c_action_set o r r' E) as [[_ ->]|[_ ->]]; cbn [rs_d rs_patches rs_n rs_c rs_5 rs_3];
    rewrite in_snoc, H; clear; tauto.
Qed.

Lemma c_action_pm o r r' : c_action o r = CSet r' -> cclear r /\ patches_match r -> patches_match r'.
Proof.
  intros E [Hc Hp]. apply orb_false_iff in Hc. destruct Hc as [Hc H3].
  unfold patches_match, nflag, cflag in *.
  destruct (c_action_set o r r' E) as [[_ ->]|[_ ->]]; cbn [rs_patches rs_n rs_c rs_5 rs_3];
    rewrite app_length, Hp, Hc, H3, ?orb_true_r; cbn [List.length orb b2n]; lia.
Qed.

Lemma c_scan_map {B} (f : rstate -> B) o :
  (forall r r', c_action o r = CSet r' -> f r' = f r) -> forall l, map f (c_scan o l) = map f l.
Proof.
  intro Hf. induction l as [|r t IH]; [reflexivity|]. cbn [c_scan].
  destruct (c_action o r) as [r'| |] eqn:E; cbn [map]; [rewrite (Hf r r' E) | | rewrite IH]; reflexivity.
Qed.

Lemma c_scan_Forall (P Q : rstate -> Prop) o :
  (forall r, P r -> Q r) -> (forall r r', c_action o r = CSet r' -> P r -> Q r') ->
  forall l, Forall P l -> Forall Q (c_scan o l).
Proof.
  intros HPQ Hset l H. induction H as [|r t Hr Ht IH]; [constructor|]. cbn [c_scan].
  pose proof (Forall_impl Q HPQ Ht) as Ht'.
  destruct (c_action o r) as [r'| |] eqn:E; constructor; eauto.
Qed.

Lemma c_scan_c_ok o : forall l, c_ok l -> c_ok (c_scan o l).
Proof.
  induction l as [|r t IH]; intro H; [exact I|]. cbn [c_scan]. pose proof (c_action_cases o r) as C.
  destruct (c_action o r) as [r'| |]; [| exact H |]; cbn [c_ok] in *.
  - destruct C as [Cr [Cr' _]]. rewrite Cr in H. rewrite Cr'. exact H.
  - destruct C as [Cr Cc]. rewrite Cr, Cc in *. split; [apply H | apply IH, H].
Qed.

Lemma c_scan_count o : forall l, c_ok l -> count cflag (c_scan o l) = b2n (c_found l).
Proof.
  induction l as [|r t IH]; intro H; [reflexivity|]. cbn [c_scan c_found c_ok] in *.
  pose proof (c_action_cases o r) as C. destruct (c_action o r) as [r'| |]; rewrite count_cons.
  - destruct C as [Cr [_ Cf]]. rewrite Cr in *. rewrite Cf, (count_zero _ _ H). reflexivity.
  - destruct C as [Cr Cc]. rewrite Cr, Cc in *. destruct H as [Hr H]. rewrite Hr, (count_zero _ _ H). reflexivity.
  - destruct C as [Cr Cc]. rewrite Cr, Cc in *. destruct H as [Hr H]. rewrite Hr. apply IH, H.
Qed.

(* setC = the search run from the chain end *)
Lemma setC_map {B} (f : rstate -> B) o l :
  (forall r r', c_action o r = CSet r' -> f r' = f r) -> map f (setC o l) = map f l.
Proof. intro Hf. unfold setC. rewrite map_rev, (c_scan_map f o Hf), map_rev. apply rev_involutive. Qed.

Lemma setC_Forall (P Q : rstate -> Prop) o l :
  (forall r, P r -> Q r) -> (forall r r', c_action o r = CSet r' -> P r -> Q r') ->
  Forall P l -> Forall Q (setC o l).
Proof. intros H1 H2 H. unfold setC. apply Forall_rev, (c_scan_Forall P Q o H1 H2), Forall_rev, H. Qed.

Lemma setN_d o r : rs_d (setN o r) = rs_d r.
Proof. unfold setN. destruct (rd_kind (rs_d r)); reflexivity. Qed.

Lemma setN_cflag o r : cflag (setN o r) = cflag r.
Proof. unfold setN, cflag. destruct (rd_kind (rs_d r)); reflexivity. Qed.

Lemma setN_kind o r : kind_ok r -> kind_ok (setN o r).
Proof.
  intros [K1 K2]. unfold setN. destruct (rd_kind (rs_d r)) eqn:K; split; cbn [rs_d rs_n rs_c rs_5 rs_3];
    rewrite ?K; auto.
Qed.

Lemma setN_nflag o r : kind_ok r -> nflag (setN o r) = is_poly r.
Proof.
  intros [K1 K2]. unfold setN, is_poly, nflag. destruct (rd_kind (rs_d r)) eqn:K; cbn [rs_n rs_5];
    auto using orb_true_r.
  all: destruct (rs_n r); [discriminate (K1 (or_introl eq_refl))|].
  all: destruct (rs_5 r); [discriminate (K2 (or_introl eq_refl)) | reflexivity].
Qed.

Lemma setN_ps o r : patch_set_ok o r -> patch_set_ok o (setN o r).
Proof.
  intros H p. specialize (H p). unfold setN, npatch in *.
  destruct (rd_kind (rs_d r)); try exact H; cbn [rs_d rs_patches rs_n rs_c rs_5 rs_3];
    rewrite in_snoc, H; clear; tauto.
Qed.

Lemma setN_pm o r : unflagged r -> patches_match (setN o r).
Proof.
  intro U. destruct (unflagged_flags r U) as [Hn [H5 [Hc [H3 Hp]]]].
  unfold setN, patches_match, nflag, cflag. destruct (rd_kind (rs_d r)); cbn [rs_n rs_c rs_5 rs_3 rs_patches];
    rewrite ?Hn, ?H5, ?Hc, ?H3, ?Hp; reflexivity.
Qed.

(* assign_termini on ANY segment satisfying the invariant (re-application included) *)
Lemma assign_seg : forall o close l l', seg_ok o l -> assign o close l = Some l' ->
  map rs_d l' = map rs_d l /\ seg_ok o l' /\ seg_full close l'.
Proof.
  intros o close l l' [HK [HP [HT HC]]] H. unfold assign in H. destruct l as [|r0 t]; [discriminate|].
  destruct (cyclic close (r0 :: t)) eqn:Cy; injection H as <-.
  - split; [reflexivity|]. split; [repeat split; assumption|].
    intro E. rewrite Cy in E. discriminate E.
  - cbn [upd_head tl] in *. inversion HK as [|? ? K0 Kt]; subst. inversion HP as [|? ? P0 Pt]; subst.
    set (l1 := setN o r0 :: t).
    assert (D1 : map rs_d l1 = map rs_d (r0 :: t)) by (unfold l1; cbn [map]; rewrite setN_d; reflexivity).
    assert (Dall : map rs_d (setC o l1) = map rs_d (r0 :: t)) by (rewrite (setC_map rs_d o l1 (c_action_d o)); exact D1).
    pose proof (setC_map nflag o l1 (c_action_nflag o)) as NF.
    assert (C1 : c_ok (rev l1)).
    { apply (c_ok_ext (rev (r0 :: t))); [|exact HC]. rewrite !map_rev. f_equal. unfold l1. cbn [map].
      rewrite setN_cflag, setN_d. reflexivity. }
    split; [exact Dall|]. split.
    + split; [|split; [|split]].
      * apply (setC_Forall kind_ok kind_ok o l1 (fun _ H => H) (c_action_kind o)).
        constructor; [apply setN_kind; exact K0 | exact Kt].
      * apply (setC_Forall _ _ o l1 (fun _ H => H) (c_action_ps o)).
        constructor; [apply setN_ps; exact P0 | exact Pt].
      * apply (f_equal (@tl bool)) in NF. unfold l1 in NF. rewrite <- !map_tl in NF. cbn [tl] in NF.
        apply (map_eq_Forall nflag (fun b => b = false) t _ (eq_sym NF)). exact HT.
      * unfold setC. rewrite rev_involutive. apply c_scan_c_ok. exact C1.
    + intros _. split.
      * rewrite (hd_nflag_map _ _ NF), (head_poly_d _ _ Dall). apply setN_nflag. exact K0.
      * unfold setC. rewrite count_rev, (c_scan_count o _ C1).
        change (c_found (rev l1)) with (has_c_end l1).
        fold (setC o l1). rewrite (has_c_end_d _ _ Dall), (has_c_end_d _ _ D1). reflexivity.
Qed.

(* assign_termini on a chain nobody has touched yet: on top of seg_ok and seg_full, one patch per
   flag, and a cyclic chain stays untouched *)
Definition chain_ok (close : nat -> nat -> bool) (c : list rstate) : Prop :=
  if cyclic close c then Forall unflagged c
  else count nflag c = b2n (head_poly c) /\
       Forall (fun r => nflag r = false) (tl c) /\
       count cflag c = b2n (has_c_end c) /\
       Forall patches_match c /\ Forall kind_ok c.

Lemma chain_ok_of_seg o close c : seg_ok o c -> seg_full close c -> Forall patches_match c ->
  (cyclic close c = true -> Forall unflagged c) -> chain_ok close c.
Proof.
  intros [HK [_ [HT _]]] F PM U. unfold chain_ok. destruct (cyclic close c) eqn:Cy; [exact (U eq_refl)|].
  destruct (F Cy) as [F1 F2]. rewrite (count_hd c HT), F1. repeat split; assumption.
Qed.

Lemma assign_pm o close l l' : Forall unflagged l -> assign o close l = Some l' -> Forall patches_match l'.
Proof.
  intros U H. unfold assign in H. destruct l as [|r0 t]; [discriminate|].
  destruct (cyclic close (r0 :: t)); injection H as <-; [exact (Forall_impl _ unflagged_pm U)|].
  inversion U as [|? ? U0 Ut]; subst. cbn [upd_head].
  apply (setC_Forall (fun r => cclear r /\ patches_match r) _ o _ (fun _ H => proj2 H) (c_action_pm o)).
  constructor.
  - split; [unfold cclear; rewrite setN_cflag; apply unflagged_c; exact U0 | apply setN_pm; exact U0].
  - eapply Forall_impl; [|exact Ut]. intros a Ha. split; [apply unflagged_c | apply unflagged_pm]; exact Ha.
Qed.

Theorem assign_spec : forall o close l l',
  Forall unflagged l -> assign o close l = Some l' ->
  map rs_d l' = map rs_d l /\ chain_ok close l'.
Proof.
  intros o close l l' U H.
  destruct (assign_seg o close l l' (unflagged_seg_ok o l U) H) as [D [S F]].
  split; [exact D|]. apply (chain_ok_of_seg o close l' S F (assign_pm o close l l' U H)).
  intro Cy. rewrite (cyclic_d close _ _ D) in Cy. unfold assign in H. destruct l; [discriminate|].
  rewrite Cy in H. injection H as <-. exact U.
Qed.

(* relabelling the chain id changes nothing else: every predicate above is blind to
   rs_chain, so it holds of [set_chain c r] by conversion *)
Definition relabel (g : rstate -> rstate) : Prop := forall r, exists c, g r = set_chain c r.

Lemma set_chain_relabel c : relabel (set_chain c).
Proof. intro r. exists c. reflexivity. Qed.

Lemma relabel_map {B} (f : rstate -> B) g l :
  relabel g -> (forall c r, f (set_chain c r) = f r) -> map f (map g l) = map f l.
Proof. intros Hg Hf. rewrite map_map. apply map_ext. intro r. destruct (Hg r) as [c ->]. apply Hf. Qed.

Lemma relabel_Forall (P : rstate -> Prop) g l :
  relabel g -> (forall c r, P r -> P (set_chain c r)) -> Forall P l -> Forall P (map g l).
Proof.
  intros Hg HP H. apply Forall_map. eapply Forall_impl; [|exact H].
  intros r Hr. destruct (Hg r) as [c ->]. apply HP, Hr.
Qed.

Lemma seg_ok_map o g c : relabel g -> seg_ok o c -> seg_ok o (map g c).
Proof.
  intros Hg [HK [HP [HT HC]]]. split; [|split; [|split]].
  - exact (relabel_Forall kind_ok g c Hg (fun _ _ H => H) HK).
  - exact (relabel_Forall (patch_set_ok o) g c Hg (fun _ _ H => H) HP).
  - rewrite <- map_tl. exact (relabel_Forall (fun r => nflag r = false) g _ Hg (fun _ _ H => H) HT).
  - apply (c_ok_ext (rev c)); [|exact HC]. rewrite !map_rev. f_equal. symmetry.
    exact (relabel_map (fun r => (cflag r, rs_d r)) g c Hg (fun _ _ => eq_refl)).
Qed.

Lemma seg_full_map close g c : relabel g -> seg_full close c -> seg_full close (map g c).
Proof.
  intros Hg H. pose proof (relabel_map rs_d g c Hg (fun _ _ => eq_refl)) as D. unfold seg_full.
  rewrite (cyclic_d close _ _ D), (head_poly_d _ _ D), (has_c_end_d _ _ D),
    (count_map_eq cflag _ _ (relabel_map cflag g c Hg (fun _ _ => eq_refl))),
    (hd_nflag_map _ _ (relabel_map nflag g c Hg (fun _ _ => eq_refl))).
  exact H.
Qed.

Lemma chain_ok_map close g c : relabel g -> chain_ok close c -> chain_ok close (map g c).
Proof.
  intros Hg H. pose proof (relabel_map rs_d g c Hg (fun _ _ => eq_refl)) as D. unfold chain_ok in *.
  rewrite (cyclic_d close _ _ D). destruct (cyclic close c).
  - exact (relabel_Forall unflagged g c Hg (fun _ _ H => H) H).
  - destruct H as [H1 [H2 [H3 [H4 H5]]]].
    rewrite (head_poly_d _ _ D), (has_c_end_d _ _ D), <- map_tl,
      (count_map_eq cflag _ _ (relabel_map cflag g c Hg (fun _ _ => eq_refl))),
      (count_map_eq nflag _ _ (relabel_map nflag g c Hg (fun _ _ => eq_refl))).
    repeat split; try assumption.
    + exact (relabel_Forall (fun r => nflag r = false) g _ Hg (fun _ _ H => H) H2).
    + exact (relabel_Forall patches_match g c Hg (fun _ _ H => H) H4).
    + exact (relabel_Forall kind_ok g c Hg (fun _ _ H => H) H5).
Qed.

Lemma rename_blank_relabel keys cs out :
  rename_blank keys cs = Done out -> exists g, relabel g /\ out = map (map g) cs.
Proof.
  assert (Id : exists g, relabel g /\ cs = map (map g) cs).
  { exists (fun r => r). split; [intro r; exists (rs_chain r); destruct r; reflexivity|].
    symmetry. etransitivity; [apply map_ext; intro; apply map_id | apply map_id]. }
  unfold rename_blank. destruct (mem_string EmptyString keys); [|intros [= <-]; exact Id].
  destruct (forallb is_water (last cs [])); [intros [= <-]; exact Id|].
  destruct (fresh keys) as [cid|]; [|discriminate]. intros [= <-]. eexists. split; [|reflexivity].
  intro r. destruct (String.eqb (rs_chain r) EmptyString); [eexists; reflexivity|].
  exists (rs_chain r). destruct r; reflexivity.
Qed.

Lemma scan_nofix : forall rest fuel o close keys acc,
  Forall (fun r => fixflag r = false) rest -> List.length rest < fuel ->
  scan fuel o close keys acc rest = Done (keys, [], (acc ++ rest)%list).
Proof.
  induction rest as [|r rest IH]; intros fuel o close keys acc H Hf.
  - destruct fuel; [inversion Hf|]. cbn [scan]. rewrite app_nil_r. reflexivity.
  - destruct fuel; [inversion Hf|]. cbn [scan]. inversion H as [|? ? Hr Hrest]; subst. rewrite Hr.
    rewrite IH; [|exact Hrest | cbn [List.length] in Hf; lia].
    rewrite <- app_assoc. reflexivity.
Qed.

Lemma scan_all_nofix : forall cs o close keys,
  Forall (Forall (fun r => fixflag r = false)) cs ->
  scan_all o close keys cs = Done (keys, cs).
Proof.
  induction cs as [|c cs IH]; intros o close keys H; [reflexivity|].
  inversion H as [|? ? Hc Hcs]; subst. cbn [scan_all].
  rewrite (scan_nofix c (S (List.length c)) o close keys [] Hc); [|lia].
  rewrite (IH o close keys Hcs). reflexivity.
Qed.

Lemma assign_all_Forall2 {X} (F : X -> list rstate) o close : forall xs cs1,
  assign_all o close (map F xs) = Some cs1 -> Forall2 (fun x c1 => assign o close (F x) = Some c1) xs cs1.
Proof.
  induction xs as [|x xs IH]; intros cs1 H; cbn [map assign_all] in H.
  - injection H as <-. constructor.
  - destruct (assign o close (F x)) as [c'|] eqn:E; [|discriminate].
    destruct (assign_all o close (map F xs)) as [r'|]; [|discriminate].
    injection H as <-. constructor; [exact E | apply IH; reflexivity].
Qed.

(* phase 1 of set_termini leaves no residue asking for a chain split *)
Definition no_hidden (o : opts) (close : nat -> nat -> bool) (chains : list (string * list rdesc)) : Prop :=
  forall cs1, assign_all o close (map (fun c => map (fresh_res (fst c)) (snd c)) chains) = Some cs1 ->
              Forall (Forall (fun r => fixflag r = false)) cs1.

Lemma fresh_unflagged cid ds : Forall unflagged (map (fresh_res cid) ds).
Proof. apply Forall_map, Forall_forall. intros d _. repeat split; reflexivity. Qed.

Lemma fresh_d cid ds : map rs_d (map (fresh_res cid) ds) = ds.
Proof. rewrite map_map. apply map_id. Qed.

Theorem termini_once : forall o close chains out,
  termini o close chains = Done out ->
  no_hidden o close chains ->
  Forall2 (fun c oc => map rs_d oc = snd c /\ chain_ok close oc) chains out.
Proof.
  intros o close chains out H NH. unfold termini in H. unfold no_hidden in NH.
  destruct (assign_all o close (map (fun c => map (fresh_res (fst c)) (snd c)) chains)) as [cs1|] eqn:E1; [|discriminate].
  rewrite (scan_all_nofix cs1 o close _ (NH cs1 eq_refl)) in H.
  destruct (rename_blank_relabel _ _ _ H) as [g [Hg ->]]. clear H NH.
  apply assign_all_Forall2 in E1. induction E1 as [|ch c1 chains cs1 Hc _ IH]; constructor; [|exact IH].
  destruct (assign_spec o close _ c1 (fresh_unflagged (fst ch) (snd ch)) Hc) as [D K].
  rewrite fresh_d in D. split; [|apply chain_ok_map; assumption].
  rewrite (relabel_map rs_d g c1 Hg (fun _ _ => eq_refl)). exact D.
Qed.

Lemma fixflag_poly r : fixflag r = true -> is_poly r = true.
Proof. unfold fixflag, is_poly. destruct (rd_kind (rs_d r)); intro H; try reflexivity; discriminate H. Qed.

Lemma seg_split : forall o (a : list rstate) r b, seg_ok o ((a ++ [r]) ++ b) -> is_poly r = true ->
  seg_ok o (a ++ [r]) /\ seg_ok o b.
Proof.
  intros o a r b [HK [HP [HT HC]]] Hr.
  apply Forall_app in HK. destruct HK as [HK1 HK2]. apply Forall_app in HP. destruct HP as [HP1 HP2].
  rewrite rev_app_distr in HC. rewrite (rev_app_distr a [r]) in HC. cbn [rev app] in HC.
  assert (Nb : Forall (fun x => nflag x = false) b /\ Forall (fun x => nflag x = false) (tl (a ++ [r]))).
  { destruct a as [|x a]; cbn [app tl] in *.
    - split; [exact HT | constructor].
    - apply Forall_app in HT. destruct HT as [HT1 HT2]. split; assumption. }
  destruct Nb as [Nb Na]. split.
  - split; [exact HK1|]. split; [exact HP1|]. split; [exact Na|].
    rewrite rev_app_distr. cbn [rev app c_ok]. rewrite Hr.
    apply (c_ok_after (rev b) r (rev a) HC Hr).
  - split; [exact HK2|]. split; [exact HP2|]. split; [apply Forall_tl; exact Nb|].
    apply (c_ok_prefix (rev b) (r :: rev a)). exact HC.
Qed.

Lemma scan_seg : forall fuel o close keys acc rest k segs fin,
  scan fuel o close keys acc rest = Done (k, segs, fin) ->
  seg_ok o (acc ++ rest) -> seg_full close (acc ++ rest) ->
  (List.concat (map (map rs_d) segs) ++ map rs_d fin)%list = map rs_d (acc ++ rest) /\
  Forall (seg_ok o) segs /\ seg_ok o fin /\ Forall (seg_full close) segs /\ seg_full close fin.
Proof.
  induction fuel as [|f IH]; intros o close keys acc rest k segs fin H I Fu; [discriminate|].
  cbn [scan] in H. destruct rest as [|r rest'].
  - inversion H; subst. rewrite app_nil_r in *. cbn [map List.concat app].
    split; [reflexivity|]. split; [constructor|]. split; [exact I|]. split; [constructor | exact Fu].
  - assert (EA : (acc ++ r :: rest' = (acc ++ [r]) ++ rest')%list) by (rewrite <- app_assoc; reflexivity).
    rewrite EA in I, Fu. rewrite EA.
    destruct (fixflag r) eqn:FF.
    + destruct (fresh keys) as [cid|]; [|discriminate].
      destruct (assign o close rest') as [rest''|] eqn:A1;
        destruct (assign o close (map (set_chain (first_char cid)) (acc ++ [r]))) as [newc'|] eqn:A2;
        try discriminate.
      destruct (scan f o close (cid :: keys) [] rest'') as [[[k' segs'] fin']| |] eqn:S; try discriminate.
      inversion H; subst. clear H.
      destruct (seg_split o acc r rest' I (fixflag_poly r FF)) as [I1 I2].
      pose proof (set_chain_relabel (first_char cid)) as Hg.
      destruct (assign_seg o close _ _ (seg_ok_map o _ _ Hg I1) A2) as [D2 [J2 G2]].
      destruct (assign_seg o close _ _ I2 A1) as [D1 [J1 G1]].
      destruct (IH o close (cid :: keys) [] rest'' k segs' fin S J1 G1) as [R [F1 [F2 [F3 F4]]]].
      cbn [app] in R. split; [|split; [constructor; assumption|split; [exact F2|split; [constructor; assumption|exact F4]]]].
      cbn [map List.concat]. rewrite <- app_assoc, R, D1, D2, (relabel_map rs_d _ _ Hg (fun _ _ => eq_refl)).
      symmetry. apply map_app.
    + apply (IH o close keys (acc ++ [r])%list rest' k segs fin H I Fu).
Qed.

Lemma scan_all_seg : forall cs o close keys k out,
  scan_all o close keys cs = Done (k, out) -> Forall (seg_ok o) cs -> Forall (seg_full close) cs ->
  List.concat (map (map rs_d) out) = List.concat (map (map rs_d) cs) /\
  Forall (seg_ok o) out /\ Forall (seg_full close) out.
Proof.
  induction cs as [|c cs IH]; intros o close keys k out H I Fu; cbn [scan_all] in H.
  - inversion H; subst. repeat split; constructor.
  - inversion I as [|? ? Ic Ics]; subst. inversion Fu as [|? ? Fc Fcs]; subst.
    destruct (scan (S (List.length c)) o close keys [] c) as [[[k1 segs] fin]| |] eqn:S; try discriminate.
    destruct (scan_all o close k1 cs) as [[k2 out']| |] eqn:S2; try discriminate.
    inversion H; subst. clear H.
    destruct (scan_seg _ _ _ _ _ _ _ _ _ S Ic Fc) as [R [F1 [F2 [F3 F4]]]]. cbn [app] in R.
    destruct (IH o close k1 k out' S2 Ics Fcs) as [R2 [F5 F6]].
    change (segs ++ [fin] ++ out')%list with (segs ++ fin :: out')%list.
    split; [|split].
    + rewrite map_app, concat_app. cbn [map List.concat]. rewrite R2.
      rewrite app_assoc, R. reflexivity.
    + apply Forall_app. split; [exact F1|]. constructor; assumption.
    + apply Forall_app. split; [exact F3|]. constructor; assumption.
Qed.

Lemma phase1_seg : forall o close chains cs1,
  assign_all o close (map (fun c => map (fresh_res (fst c)) (snd c)) chains) = Some cs1 ->
  List.concat (map (map rs_d) cs1) = List.concat (map snd chains) /\
  Forall (seg_ok o) cs1 /\ Forall (seg_full close) cs1.
Proof.
  intros o close chains cs1 H. apply assign_all_Forall2 in H.
  induction H as [|ch c1 chains cs1 Hc _ [R [F1 F2]]]; [repeat split; constructor|].
  destruct (assign_seg o close _ c1 (unflagged_seg_ok o _ (fresh_unflagged (fst ch) (snd ch))) Hc) as [D [J G]].
  rewrite fresh_d in D.
  split; [cbn [map List.concat]; rewrite D, R; reflexivity | split; constructor; assumption].
Qed.

(* for ALL chain lists, hidden chain ends included: residues are neither lost, duplicated nor
   moved by the splitting; every resulting segment satisfies seg_ok (at most one N/5' flag, on
   its head; at most one C/3' flag, on its last polymer residue not hidden by a cap; flags
   respect the residue kind; the patch SET is the function of the flags) and seg_full (a
   non-cyclic segment has both ends flagged, as far as they exist) *)
Theorem termini_general : forall o close chains out,
  termini o close chains = Done out ->
  List.concat (map (map rs_d) out) = List.concat (map snd chains) /\
  Forall (seg_ok o) out /\ Forall (seg_full close) out.
Proof.
  intros o close chains out H. unfold termini in H.
  destruct (assign_all o close (map (fun c => map (fresh_res (fst c)) (snd c)) chains)) as [cs1|] eqn:E1; [|discriminate].
  destruct (phase1_seg o close chains cs1 E1) as [R [F G]].
  destruct (scan_all o close (map fst chains) cs1) as [[keys out0]| |] eqn:S; try discriminate.
  destruct (scan_all_seg cs1 o close _ keys out0 S F G) as [R2 [F2 G2]].
  destruct (rename_blank_relabel _ _ _ H) as [g [Hg ->]]. split; [|split].
  - rewrite <- R, <- R2. f_equal. rewrite map_map. apply map_ext. intro c.
    exact (relabel_map rs_d g c Hg (fun _ _ => eq_refl)).
  - apply Forall_map. eapply Forall_impl; [|exact F2]. intro c. apply seg_ok_map, Hg.
  - apply Forall_map. eapply Forall_impl; [|exact G2]. intro c. apply seg_full_map, Hg.
Qed.

Theorem seg_ok_at_most_one : forall o c, seg_ok o c -> count nflag c <= 1 /\ count cflag c <= 1.
Proof.
  intros o c [_ [_ [HT HC]]]. split.
  - rewrite (count_hd c HT). destruct (hd_nflag c); cbn; lia.
  - rewrite <- count_rev. apply c_ok_count. exact HC.
Qed.

Lemma has_patch_In p d : has_patch p d = true <-> In p (ad_patches d).
Proof.
  unfold has_patch. rewrite existsb_exists. split.
  - intros [x [Hi He]]. apply patch_eqb_eq in He. subst. exact Hi.
  - intro Hi. exists p. split; [exact Hi | apply Nat.eqb_refl].
Qed.

(* the terminus STATE in the name is a function of flags, options and descriptor; how often
   a patch was applied does not matter *)
Definition term_prefix (o : opts) (cls : aclass) (r : rstate) : prefix :=
  if rs_n r then match cls with
                 | C_PRO => PN
                 | _ => if o_neutraln o || rd_nheavy2 (rs_d r) then PNN else PN
                 end
  else if rs_c r then (if o_neutralc o then PNC else PC)
  else PNone.

(* the NEUTRAL patches are there iff flag and option say so: no other flag brings one *)
Lemma neutral_patches o r : patch_set_ok o r ->
  (In P_NEUTRAL_NTERM (rs_patches r) <-> rs_n r && (o_neutraln o || rd_nheavy2 (rs_d r)) = true) /\
  (In P_NEUTRAL_CTERM (rs_patches r) <-> rs_c r && o_neutralc o = true).
Proof.
  intro HP. split; rewrite (HP _), andb_true_iff; unfold npatch, cpatch;
    destruct (o_neutraln o || rd_nheavy2 (rs_d r)), (o_neutralc o); clear; intuition discriminate.
Qed.

Theorem state_from_flags : forall o r d,
  patch_set_ok o r ->
  ad_nterm d = rs_n r -> ad_cterm d = rs_c r -> ad_patches d = rs_patches r ->
  spec_prefix d = term_prefix o (ad_cls d) r.
Proof.
  intros o r d HP En Ec Ep. destruct (neutral_patches o r HP) as [HN HC].
  rewrite <- Ep, <- has_patch_In in HN, HC. apply eq_true_iff_eq in HN. apply eq_true_iff_eq in HC.
  unfold spec_prefix, term_prefix. rewrite En, Ec, HN, HC.
  destruct (rs_n r); [reflexivity|]. destruct (rs_c r); reflexivity.
Qed.

Definition amino_d (i : nat) (oxt : bool) : rdesc := mkrd i KAmino false oxt false true true false.
Definition nuc_d (i : nat) : rdesc := mkrd i KNucleic false false false false false false.
Definition wat_d (i : nat) : rdesc := mkrd i KWater false false false false false false.
Definition cap_d (i : nat) : rdesc := mkrd i KOther true false false true false false.

Local Open Scope string_scope.
(* chain A: 3 amino acids (OXT on the third) followed by a water; chain B: cyclic
   tripeptide (N of 10 close to C of 12); blank chain: a dinucleotide *)
Definition ex_chains : list (string * list rdesc) :=
  [("A", [amino_d 0 false; amino_d 1 false; amino_d 2 true; wat_d 3]);
   ("B", [amino_d 10 false; amino_d 11 false; amino_d 12 false]);
   ("", [nuc_d 20; nuc_d 21])].
Definition ex_close := close_of [(10, 12)].
Definition ex_opts := mkopts false false.

Lemma ex_no_hidden : no_hidden ex_opts ex_close ex_chains.
Proof. intros cs1 H. vm_compute in H. inversion H; subst. repeat constructor. Qed.

Lemma ex_termini : show_termini (termini ex_opts ex_close ex_chains)
  = "0:1000:NTERM:A,1:0000::A,2:0100:CTERM:A,3:0000::A|10:0000::B,11:0000::B,12:0000::B|20:0010:5TERM:C,21:0001:3TERM:C".
Proof. vm_compute. reflexivity. Qed.

(* hidden chain end: OXT on the second of four residues.  The chain is split,
   both halves get one N- and one C-terminus; the patches of residues 0 and 3
   are applied twice (assign_termini runs again on both halves) *)
Definition ex_hidden : list (string * list rdesc) :=
  [("A", [amino_d 0 false; amino_d 1 true; amino_d 2 false; amino_d 3 true])].

Lemma ex_hidden_termini : show_termini (termini ex_opts (close_of []) ex_hidden)
  = "0:1000:NTERM+NTERM:B,1:0100:CTERM:B|2:1000:NTERM:A,3:0100:CTERM+CTERM:A".
Proof. vm_compute. reflexivity. Qed.

(* the one clause that FAILS with hidden chain ends: "a cyclic segment gets none" *)
(* residues 0..2 closed head-to-tail (N of 0 next to C of 2) although 2 carries OXT, followed
   by two more residues in the same chain: phase 1 flags 0 and 4 (the whole chain is not
   cyclic), the split at 2 then finds the segment 0..2 cyclic and leaves it as it is *)
Definition ex_cyc_split : list (string * list rdesc) :=
  [("A", [amino_d 0 false; amino_d 1 false; amino_d 2 true; amino_d 3 false; amino_d 4 true])].

Lemma ex_cyc_split_termini : show_termini (termini ex_opts (close_of [(0, 2)]) ex_cyc_split)
  = "0:1000:NTERM:B,1:0000::B,2:0000::B|3:1000:NTERM:A,4:0100:CTERM+CTERM:A".
Proof. vm_compute. reflexivity. Qed.

Theorem cyclic_after_split_refuted :
  exists o close chains out c, termini o close chains = Done out /\ In c out /\
    cyclic close c = true /\ hd_nflag c = true /\ ~ Forall unflagged c.
Proof.
  exists ex_opts, (close_of [(0, 2)]), ex_cyc_split. eexists. eexists.
  split; [vm_compute; reflexivity|]. split; [left; reflexivity|].
  split; [vm_compute; reflexivity|]. split; [vm_compute; reflexivity|].
  intro H. inversion H as [|? ? [X _] _]. vm_compute in X. discriminate X.
Qed.


(* fix C02-F3: a water listed before / after a ring under the ring's chain id does not hide
   the closure *)
Definition ex_ring_water : list (string * list rdesc) :=
  [("A", [wat_d 9; amino_d 0 false; amino_d 1 false; amino_d 2 false; wat_d 3])].
Lemma ex_ring_water_termini : show_termini (termini ex_opts (close_of [(0, 2)]) ex_ring_water)
  = "9:0000::A,0:0000::A,1:0000::A,2:0000::A,3:0000::A".
Proof. vm_compute. reflexivity. Qed.
Local Close Scope string_scope.
