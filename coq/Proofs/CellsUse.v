(* C14: pdb2pqr's call-site protocols keep the cell list truthful.
   A lemma C_x says what the cell-list operation x does to [consistent]; P_x says that the
   primitive or protocol x of Model/CellsUse.v keeps [Good]; T_protocol_x collects the P_
   lemmas of one family of protocols, as Properties/C14.v states them. *)
From Coq Require Import ZArith List Bool Arith Lia.
From PV Require Import Lib.Lists Model.Cells Proofs.Cells Model.CellsUse Generated.C14Sites.
Import ListNotations.
Local Open Scope Z_scope.

(* every loop over a block of neighbours iterates it where it was queried (unconditionally, for
   the loop's own subject): the static half of "the block used for atom a was queried for a" *)
Theorem blocks_used_where_queried : forallb (fun r => snd r) query_use = true.
Proof. vm_compute. reflexivity. Qed.

(* the call-site skeletons generated from the source (Generated/C14Sites.v) are exactly
   the ones the model was written from (Model/CellsUse.v modelled_sites) *)
Theorem sites_table_matches_model : table_eqb sites modelled_sites = true.
Proof. vm_compute. reflexivity. Qed.

Section P.
  Variables size D : Z.
  Hypothesis Hsize : 0 < size.
  Hypothesis HD : 0 < D.

  Notation Inv := (Inv size D).

  (* cell list c is truthful about the atoms pr of the structure, except that
     the one atom x (if any) is in the structure but not registered *)
  Definition consistent (c : state) (pr : nat -> bool) (x : option nat) : Prop :=
    Inv c /\
    (forall a, cell_of c a <> None -> pr a = true) /\
    (forall a, pr a = true -> cell_of c a <> None \/ x = Some a) /\
    (forall h, x = Some h -> cell_of c h = None /\ pr h = true).

  Definition qok (q : qentry) : Prop := consistent (q_cs q) (q_present q) None /\ q_used q = q_atom q.

  Definition alloc (u : ustate) : Prop :=
    forall a, (next u <= a)%nat -> present u a = false /\ bonds u a = [].

  Definition Core (x : option nat) (u : ustate) : Prop :=
    consistent (cs u) (present u) x /\ Forall qok (qlog u).

  Definition GoodX (x : option nat) (u : ustate) : Prop := alloc u /\ Core x u.
  Definition Good : ustate -> Prop := GoodX None.

  Lemma GoodX_intro x u : alloc u -> consistent (cs u) (present u) x -> Forall qok (qlog u) -> GoodX x u.
  Proof. intros A C Q. exact (conj A (conj C Q)). Qed.

  Lemma good_alloc {x u} : GoodX x u -> alloc u.
  Proof. intros (A & _). exact A. Qed.

  Lemma good_consistent {x u} : GoodX x u -> consistent (cs u) (present u) x.
  Proof. intros (_ & C & _). exact C. Qed.

  Lemma good_log {x u} : GoodX x u -> Forall qok (qlog u).
  Proof. intros (_ & _ & Q). exact Q. Qed.

  Lemma cell_of_add c h a : cell_of (add_cell size D c h) a = if Nat.eqb h a then Some (key_of size D (posn c h)) else cell_of c a.
  Proof. reflexivity. Qed.

  Lemma cell_of_remove c a b : cell_of (remove_cell c a) b = if Nat.eqb a b then None else cell_of c b.
  Proof.
    unfold remove_cell. destruct (cell_of c a) eqn:E; cbn [cell_of]; unfold upd.
    - reflexivity.
    - destruct (Nat.eqb_spec a b) as [<- | _]; [exact E | reflexivity].
  Qed.

  Lemma unregistered c pr x a : consistent c pr x -> pr a = false -> cell_of c a = None.
  Proof.
    intros (_ & G & _) Hp. destruct (cell_of c a) eqn:E; [|reflexivity].
    rewrite G in Hp by congruence. discriminate.
  Qed.

  Lemma C_add c pr h : consistent c pr (Some h) -> consistent (add_cell size D c h) pr None.
  Proof.
    intros (I & G & A & X). destruct (X h eq_refl) as [Hc Hp].
    split; [apply inv_add; assumption|]. split; [|split].
    - intros a. rewrite cell_of_add. destruct (Nat.eqb_spec h a) as [<- | _]; auto.
    - intros a Ha. left. rewrite cell_of_add. destruct (Nat.eqb_spec h a) as [_ | N]; [discriminate|].
      destruct (A a Ha) as [R | [= E]]; [exact R | congruence].
    - intros ? [=].
  Qed.

  Lemma C_remove c pr a : consistent c pr None -> pr a = true -> consistent (remove_cell c a) pr (Some a).
  Proof.
    intros (I & G & A & X) Hp.
    split; [apply inv_remove; assumption|]. split; [|split].
    - intros b. rewrite cell_of_remove. destruct (Nat.eqb a b); [congruence | apply G].
    - intros b Hb. rewrite cell_of_remove. destruct (Nat.eqb_spec a b) as [<- | _]; [right; reflexivity|].
      destruct (A b Hb) as [R | [=]]. left. exact R.
    - intros h [= <-]. rewrite cell_of_remove, Nat.eqb_refl. auto.
  Qed.

  Lemma C_remove_absent c pr a : consistent c pr None -> pr a = false -> remove_cell c a = c.
  Proof. intros C Hp. unfold remove_cell. rewrite (unregistered c pr None a C Hp). reflexivity. Qed.

  Lemma C_posn c pr x p : consistent c pr x -> (forall a, cell_of c a <> None -> p a = posn c a) ->
    consistent (mk (cellmap c) (cell_of c) p) pr x.
  Proof. intros (I & G) H. exact (conj (inv_posn size D c p I H) G). Qed.

  Lemma C_create c pr h p : consistent c pr None -> pr h = false ->
    consistent (move c h p) (upd Nat.eqb pr h true) (Some h).
  Proof.
    intros C Hp. pose proof (unregistered c pr None h C Hp) as Hc. destruct C as (I & G & A & X).
    split; [apply inv_move; assumption|]. cbn [move cell_of]. split; [|split].
    - intros a Ha. destruct (Nat.eq_dec h a) as [<- | N]; [apply upd_nat_same | rewrite upd_nat_other by assumption; auto].
    - intros a Ha. destruct (Nat.eq_dec h a) as [<- | N]; [right; reflexivity|].
      rewrite upd_nat_other in Ha by assumption. destruct (A a Ha) as [R | [=]]. left. exact R.
    - intros ? [= <-]. split; [assumption | apply upd_nat_same].
  Qed.

  Lemma C_delete c pr x h : consistent c pr x -> cell_of c h = None -> (x = None \/ x = Some h) ->
    consistent c (upd Nat.eqb pr h false) None.
  Proof.
    intros (I & G & A & X) Hc Hx. split; [assumption|]. split; [|split].
    - intros a Ha. rewrite upd_nat_other by congruence. auto.
    - intros a Ha. destruct (Nat.eq_dec h a) as [<- | N]; [rewrite upd_nat_same in Ha; discriminate|].
      rewrite upd_nat_other in Ha by assumption. destruct (A a Ha) as [R | E]; [left; exact R|].
      destruct Hx as [-> | ->]; congruence.
    - intros ? [=].
  Qed.

  Lemma link1_other a b bd c : c <> a -> link1 a b bd c = bd c.
  Proof.
    intros H. unfold link1. destruct (mem b (bd a)); [reflexivity|].
    apply upd_nat_other. congruence.
  Qed.

  Lemma mem_in a l : mem a l = true <-> In a l.
  Proof. exact (existsb_eqb_In Nat.eqb Nat.eqb_eq a l). Qed.

  Lemma link1_self a b bd : link1 a b bd a = bd a \/ (link1 a b bd a = (bd a ++ [b])%list /\ ~ In b (bd a)).
  Proof.
    unfold link1. destruct (mem b (bd a)) eqn:E; [left; reflexivity|].
    right. split; [apply upd_nat_same|]. intros H. apply mem_in in H. congruence.
  Qed.

  Lemma fold_link_frame h : forall bs bd a, a <> h -> ~ In a bs ->
    fold_left (fun bd b => link1 b h (link1 h b bd)) bs bd a = bd a.
  Proof.
    induction bs as [|b r IH]; intros bd a Ha Hn; cbn [fold_left]; [reflexivity|].
    rewrite IH by (try assumption; intros H; apply Hn; right; exact H).
    rewrite link1_other by (intros ->; apply Hn; left; reflexivity).
    apply link1_other. assumption.
  Qed.

  Lemma fold_link_grow h a l : a <> h -> forall bs bd,
    bd a = l \/ bd a = (l ++ [h])%list ->
    let bd' := fold_left (fun bd b => link1 b h (link1 h b bd)) bs bd in
    bd' a = l \/ bd' a = (l ++ [h])%list.
  Proof.
    intros Ha. induction bs as [|b r IH]; intros bd H; cbn [fold_left]; [exact H|].
    apply IH. destruct (Nat.eq_dec a b) as [-> | N].
    - destruct (link1_self b h (link1 h b bd)) as [E | [E Hn]]; rewrite E; rewrite link1_other by assumption.
      + exact H.
      + rewrite link1_other in Hn by assumption. destruct H as [H | H]; rewrite H in *.
        * right. reflexivity.
        * exfalso. apply Hn. apply in_or_app. right. left. reflexivity.
    - rewrite !link1_other by assumption. exact H.
  Qed.

  Lemma create_bonds u p bs a : a <> next u ->
    bonds (u_create p bs u) a = bonds u a \/ bonds (u_create p bs u) a = (bonds u a ++ [next u])%list.
  Proof. intros Ha. apply fold_link_grow; [exact Ha|]. left. apply upd_nat_other. congruence. Qed.

  Lemma fold_del_nil h : forall l (bd : nat -> list nat) a, bd a = [] ->
    fold_left (fun bd b => upd Nat.eqb bd b (remove_first h (bd b))) l bd a = [].
  Proof.
    induction l as [|b r IH]; intros bd a H; cbn [fold_left]; [exact H|].
    apply IH. destruct (Nat.eq_dec b a) as [-> | N].
    - rewrite upd_nat_same, H. reflexivity.
    - rewrite upd_nat_other by assumption. exact H.
  Qed.

  Lemma alloc_create u p bs : alloc u -> alloc (u_create p bs u).
  Proof.
    intros A a Ha. unfold u_create in *. cbn [next present bonds] in *.
    assert (a <> next u) by lia. destruct (A a ltac:(lia)) as [Hp Hb]. split.
    - rewrite upd_nat_other by congruence. exact Hp.
    - rewrite fold_link_frame; [rewrite upd_nat_other by congruence; exact Hb | assumption |].
      intros H1. apply filter_In in H1 as [_ H1]. congruence.
  Qed.

  Lemma alloc_delete u h : alloc u -> alloc (u_delete h u).
  Proof.
    intros A a Ha. unfold u_delete in *. cbn [next present bonds] in *.
    destruct (A a Ha) as [Hp Hb]. split.
    - destruct (Nat.eq_dec h a) as [-> | N]; [apply upd_nat_same | rewrite upd_nat_other by assumption; exact Hp].
    - apply fold_del_nil. exact Hb.
  Qed.

  Lemma alloc_link u a b : alloc u -> present u a && present u b = true ->
    alloc (mkU (cs u) (present u) (link1 b a (link1 a b (bonds u))) (next u) (qlog u)).
  Proof.
    intros A E c Hc. apply andb_prop in E as [Pa Pb].
    cbn [next present bonds] in *. destruct (A c Hc) as [Hp Hb]. split; [exact Hp|].
    rewrite !link1_other by congruence. exact Hb.
  Qed.

  Lemma open_unregistered h u : GoodX (Some h) u -> cell_of (cs u) h = None.
  Proof. intros G. destruct (good_consistent G) as (_ & _ & _ & X). apply (X h eq_refl). Qed.

  Lemma P_add h u : GoodX (Some h) u -> Good (u_add size D h u).
  Proof.
    intros G. apply GoodX_intro; [exact (good_alloc G) | | exact (good_log G)].
    apply C_add, (good_consistent G).
  Qed.

  Lemma P_remove a u : Good u -> present u a = true -> GoodX (Some a) (u_remove a u).
  Proof.
    intros G Hp. apply GoodX_intro; [exact (good_alloc G) | | exact (good_log G)].
    apply C_remove; [exact (good_consistent G) | exact Hp].
  Qed.

  Lemma P_remove_absent a u : Good u -> present u a = false -> Good (u_remove a u).
  Proof.
    intros G Hp. apply GoodX_intro; [exact (good_alloc G) | | exact (good_log G)].
    cbn [cs u_remove present]. rewrite (C_remove_absent _ _ _ (good_consistent G) Hp). exact (good_consistent G).
  Qed.

  Lemma P_create p bs u : Good u -> GoodX (Some (next u)) (u_create p bs u).
  Proof.
    intros G. apply GoodX_intro; [apply alloc_create, (good_alloc G) | | exact (good_log G)].
    apply C_create; [exact (good_consistent G) | exact (proj1 (good_alloc G _ (le_n _)))].
  Qed.

  Lemma P_delete x h u : GoodX x u -> cell_of (cs u) h = None -> (x = None \/ x = Some h) -> Good (u_delete h u).
  Proof.
    intros G Hc Hx. apply GoodX_intro; [apply alloc_delete, (good_alloc G) | | exact (good_log G)].
    exact (C_delete _ _ _ h (good_consistent G) Hc Hx).
  Qed.

  Lemma P_delete_some h u : GoodX (Some h) u -> Good (u_delete h u).
  Proof. intros G. exact (P_delete _ h u G (open_unregistered h u G) (or_intror eq_refl)). Qed.

  Lemma P_delete_absent a u : Good u -> present u a = false -> Good (u_delete a u).
  Proof.
    intros G Hp. exact (P_delete _ a u G (unregistered _ _ _ a (good_consistent G) Hp) (or_introl eq_refl)).
  Qed.

  Lemma P_query a u : Good u -> Good (u_query a u).
  Proof.
    intros G. apply GoodX_intro; [exact (good_alloc G) | exact (good_consistent G) |].
    constructor; [split; [exact (good_consistent G) | reflexivity] | exact (good_log G)].
  Qed.

  Lemma P_link x a b u : GoodX x u -> GoodX x (u_link a b u).
  Proof.
    intros G. unfold u_link. destruct (present u a && present u b) eqn:E; [|exact G].
    exact (GoodX_intro x _ (alloc_link u a b (good_alloc G) E) (good_consistent G) (good_log G)).
  Qed.

  (* Coordinate writes, rotations and sequences of them change nothing but posn: each is
     [set_posn p] for some p, and what matters is where p differs from the old coordinates. *)
  Definition set_posn (p : nat -> pos) (u : ustate) : ustate :=
    mkU (mk (cellmap (cs u)) (cell_of (cs u)) p) (present u) (bonds u) (next u) (qlog u).

  Lemma P_posn x p u : GoodX x u -> (forall a, cell_of (cs u) a <> None -> p a = posn (cs u) a) ->
    GoodX x (set_posn p u).
  Proof.
    intros G H. apply GoodX_intro; [exact (good_alloc G) | | exact (good_log G)].
    exact (C_posn _ _ _ p (good_consistent G) H).
  Qed.

  Definition wr (l : list nat) (f p : nat -> pos) : nat -> pos :=
    fold_left (fun p m => upd Nat.eqb p m (f m)) l p.

  Lemma wr_out f a : forall l p, ~ In a l -> wr l f p a = p a.
  Proof.
    induction l as [|m r IH]; intros p H; [reflexivity|]. cbn [wr fold_left].
    fold (wr r f (upd Nat.eqb p m (f m))). rewrite IH by (intros Hr; apply H; right; exact Hr).
    apply upd_nat_other. intros ->. apply H. left. reflexivity.
  Qed.

  Lemma wr_in f a : forall l p, In a l -> wr l f p a = f a.
  Proof.
    induction l as [|m r IH]; intros p H; [contradiction|]. cbn [wr fold_left].
    fold (wr r f (upd Nat.eqb p m (f m))).
    destruct (in_dec Nat.eq_dec a r) as [Hr | Hr]; [apply IH, Hr|].
    destruct H as [-> | H]; [|contradiction]. rewrite wr_out by exact Hr. apply upd_nat_same.
  Qed.

  Lemma writes_posn f : forall l u,
    fold_left (fun u m => u_write m (f m) u) l u = set_posn (wr l f (posn (cs u))) u.
  Proof.
    induction l as [|m r IH]; intros u; cbn [fold_left]; [destruct u as [[] ? ? ? ?]; reflexivity|].
    rewrite IH. reflexivity.
  Qed.

  Lemma P_write_some h p u : GoodX (Some h) u -> GoodX (Some h) (u_write h p u).
  Proof.
    intros G. apply (P_posn _ (upd Nat.eqb (posn (cs u)) h p)); [exact G|].
    intros a Ha. apply upd_nat_other. intros <-. apply Ha, open_unregistered, G.
  Qed.

  Lemma P_rewrite a p u : Good u -> Good (rewrite size D a p u).
  Proof.
    intros G. unfold rewrite. destruct (present u a) eqn:E; [|exact G].
    apply P_add, P_write_some, P_remove; assumption.
  Qed.

  Lemma P_remove_delete a u : Good u -> Good (remove_delete a u).
  Proof.
    intros G. unfold remove_delete. destruct (present u a) eqn:E.
    - apply P_delete_some, P_remove; assumption.
    - apply P_delete_absent; [apply P_remove_absent; assumption | exact E].
  Qed.

  Lemma P_create_add p bs u : Good u -> Good (create_add size D p bs u).
  Proof. intros G. apply P_add, P_create, G. Qed.

  Lemma for_each_ind {A} (P : ustate -> Prop) (body : A -> ustate -> ustate) l :
    (forall x u, P u -> P (body x u)) -> forall u, P u -> P (for_each l body u).
  Proof. intros H. apply fold_left_ind. intros u x. apply H. Qed.

  Lemma for_i_ind (P : ustate -> Prop) (body : nat -> ustate -> ustate) n :
    (forall i u, P u -> P (body i u)) -> forall u, P u -> P (for_i n body u).
  Proof. exact (for_each_ind P body (seq 0 n)). Qed.

  Lemma P_remove_delete_all l u : Good u -> Good (remove_delete_all l u).
  Proof. apply for_each_ind. intros. apply P_remove_delete. assumption. Qed.

  Lemma P_set_dihedral atoms f u : Good u -> Good (set_dihedral_angle size D atoms f u).
  Proof. apply for_each_ind. intros. apply P_rewrite. assumption. Qed.

  Lemma P_queries qs u : Good u -> Good (for_each qs u_query u).
  Proof. apply for_each_ind. intros. apply P_query. assumption. Qed.

  Lemma rot_n_posn n pv atom g u : exists p,
    for_i n (fun i => u_rotate pv atom (g i)) u = set_posn p u /\
    forall a, ~ In a (moved u pv atom) -> p a = posn (cs u) a.
  Proof.
    apply (for_i_ind (fun u' => exists p, u' = set_posn p u /\
                                forall a, ~ In a (moved u pv atom) -> p a = posn (cs u) a)).
    - intros i u' (p & -> & H). exists (wr (moved u pv atom) (g i) p). split.
      + exact (writes_posn (g i) (moved u pv atom) (set_posn p u)).
      + intros a Ha. rewrite wr_out by exact Ha. auto.
    - exists (posn (cs u)). split; [destruct u as [[] ? ? ? ?]|]; reflexivity.
  Qed.

  (* bond list = the pivot, possibly followed by h *)
  Definition pv_h (pv h : nat) (l : list nat) : Prop := l = [pv] \/ l = [pv; h].

  Lemma moved_pv_h u pv h atom : pv_h pv h (bonds u atom) -> forall m, In m (moved u pv atom) -> m = h.
  Proof.
    intros H m Hm. unfold moved in Hm. apply filter_In in Hm as [Hi Hn].
    apply negb_true_iff, Nat.eqb_neq in Hn.
    destruct H as [H | H]; rewrite H in Hi; cbn [In] in Hi; intuition congruence.
  Qed.

  Lemma hd_pv_h pv h l : pv_h pv h l -> hd 0%nat l = pv.
  Proof. intros [-> | ->]; reflexivity. Qed.

  (* rotating while the only rotated atom is the unregistered one *)
  Lemma P_posn_pv_h pv h atom p u : pv_h pv h (bonds u atom) -> GoodX (Some h) u ->
    (forall a, ~ In a (moved u pv atom) -> p a = posn (cs u) a) -> GoodX (Some h) (set_posn p u).
  Proof.
    intros B G H. apply P_posn; [exact G|]. intros a Ha. apply H. intros Hm.
    rewrite (moved_pv_h u pv h atom B a Hm) in Ha. apply Ha, open_unregistered, G.
  Qed.

  (* create_atom on an atom whose bond list is just the pivot *)
  Lemma create_pv_h u p bs atom : alloc u -> List.length (bonds u atom) = 1%nat ->
    exists pv, bonds u atom = [pv] /\ pv_h pv (next u) (bonds (u_create p bs u) atom).
  Proof.
    intros A E. destruct (bonds u atom) as [|pv [|? ?]] eqn:B; try discriminate.
    exists pv. split; [reflexivity|].
    assert (N : atom <> next u).
    { intros ->. destruct (A (next u) (le_n _)) as [_ E']. congruence. }
    destruct (create_bonds u p bs atom N) as [E' | E']; rewrite E', B; [left | right]; reflexivity.
  Qed.

  (* The helpers of class Optimize in hydrogens/optimize.py. *)
  Lemma P_try_single_h donor h f best pv u : pv_h pv h (bonds u donor) -> GoodX (Some h) u ->
    Good (try_single_alcoholic_h size D donor h f best u).
  Proof.
    intros B G. unfold try_single_alcoholic_h. rewrite (hd_pv_h pv h _ B).
    destruct (rot_n_posn 72 pv donor f u) as (q & -> & H).
    pose proof (P_posn_pv_h pv h donor q u B G H) as G'.
    destruct best as [p|]; [apply P_add, P_write_some | apply P_delete_some]; exact G'.
  Qed.

  Lemma P_one_bond_h donor p bs f best u : Good u -> List.length (bonds u donor) = 1%nat ->
    Good (try_single_alcoholic_h size D donor (next u) f best (make_atom_with_one_bond p bs u)).
  Proof.
    intros G E. destruct (create_pv_h u p bs donor (good_alloc G) E) as (pv & _ & B).
    exact (P_try_single_h donor (next u) f best pv _ B (P_create p bs u G)).
  Qed.

  Lemma P_two_h loc1 loc2 bs best u : Good u -> Good (try_positions_with_two_bonds_h size D loc1 loc2 bs best u).
  Proof.
    intros G. unfold try_positions_with_two_bonds_h.
    pose proof (P_write_some _ loc2 _ (P_create loc1 bs u G)) as G1.
    destruct best as [p|]; [apply P_add, P_write_some | apply P_delete_some]; exact G1.
  Qed.

  Lemma P_three_h loc bs hb u : Good u -> Good (try_positions_three_bonds_h size D loc bs hb u).
  Proof.
    intros G. unfold try_positions_three_bonds_h.
    destruct hb; [apply P_add | apply P_delete_some]; apply P_create; exact G.
  Qed.

  (* The lone-pair routines are the hydrogen routines behind an is_hbond test; where the new
     atom is kept, it is also bonded to the acceptor. *)
  Lemma try_single_lp_h acc h hb f best u :
    try_single_alcoholic_lp size D acc h hb f best u =
    if hb then try_single_alcoholic_h size D acc h f best u else u_delete h u.
  Proof. destruct hb; reflexivity. Qed.

  Lemma two_bonds_lp_h acc hb loc1 loc2 bs best u :
    try_positions_with_two_bonds_lp size D acc hb loc1 loc2 bs best u =
    if hb then let v := try_positions_with_two_bonds_h size D loc1 loc2 bs best u in
               match best with Some _ => u_link acc (next u) v | None => v end
    else u.
  Proof. destruct hb, best; reflexivity. Qed.

  Lemma three_bonds_lp_h acc hb loc bs ok u :
    try_positions_three_bonds_lp size D acc hb loc bs ok u =
    if hb then let v := try_positions_three_bonds_h size D loc bs ok u in
               if ok then u_link acc (next u) v else v
    else u.
  Proof. destruct hb, ok; reflexivity. Qed.

  Lemma P_one_bond_lp acc hb p bs f best u : Good u -> List.length (bonds u acc) = 1%nat ->
    Good (try_single_alcoholic_lp size D acc (next u) hb f best (make_atom_with_one_bond p bs u)).
  Proof.
    intros G E. rewrite try_single_lp_h.
    destruct hb; [apply P_one_bond_h; assumption | apply P_delete_some, P_create, G].
  Qed.

  Lemma P_two_lp acc hb loc1 loc2 bs best u : Good u -> Good (try_positions_with_two_bonds_lp size D acc hb loc1 loc2 bs best u).
  Proof.
    intros G. rewrite two_bonds_lp_h. destruct hb; [|exact G].
    destruct best; [apply P_link|]; apply P_two_h, G.
  Qed.

  Lemma P_three_lp acc hb loc bs ok u : Good u -> Good (try_positions_three_bonds_lp size D acc hb loc bs ok u).
  Proof.
    intros G. rewrite three_bonds_lp_h. destruct hb; [|exact G].
    destruct ok; [apply P_link|]; apply P_three_h, G.
  Qed.

  (* get_positions_with_two_bonds / get_position_with_three_bonds: registered atoms are
     rotated twice and then written back, so every coordinate is what it was *)
  Lemma P_rot3 atom g u : Good u -> Good (rot3 atom g u).
  Proof.
    intros G. unfold rot3. set (pv := hd 0%nat (bonds u atom)). cbv zeta.
    destruct (rot_n_posn 2 pv atom g u) as (p & -> & H).
    unfold for_each. rewrite (writes_posn (posn (cs u))).
    apply (P_posn None _ u); [exact G|]. intros a _. cbn [set_posn cs posn].
    destruct (in_dec Nat.eq_dec a (moved u pv atom)) as [Hi | Hi]; [apply wr_in, Hi|].
    rewrite wr_out by exact Hi. apply H, Hi.
  Qed.

  Theorem T_protocol_get_positions_disciplined atom g u : Good u ->
    Good (get_positions_with_two_bonds atom g u) /\ Good (get_position_with_three_bonds atom g u).
  Proof. intros G. split; apply P_rot3, G. Qed.

  (* The methods of the classes of hydrogens/structures.py dispatch on the number of
     bonds; the one-bond branch may use that there is one *)
  Lemma P_by_bonds (l : list nat) (u u0 u1 u2 u3 : ustate) :
    Good u -> Good u0 -> (List.length l = 1%nat -> Good u1) -> Good u2 -> Good u3 ->
    Good (match List.length l with 0 => u0 | 1 => u1 | 2 => u2 | 3 => u3 | _ => u end)%nat.
  Proof. intros G G0 G1 G2 G3. destruct l as [|? [|? [|? [|? ?]]]]; cbn [List.length]; auto. Qed.

  Lemma P_alcoholic_try_donor o donor u : Good u -> Good (alcoholic_try_donor size D o donor u).
  Proof.
    intros G. unfold alcoholic_try_donor. destruct (t_enabled o); [|exact G].
    apply P_by_bonds; try exact G.
    - apply P_one_bond_h, G.
    - apply P_two_h, P_rot3, G.
    - apply P_three_h, P_rot3, G.
  Qed.

  Lemma P_alcoholic_try_acceptor o acc u : Good u -> Good (alcoholic_try_acceptor size D o acc u).
  Proof.
    intros G. unfold alcoholic_try_acceptor. destruct (t_enabled o); [|exact G].
    apply P_by_bonds; try exact G.
    - apply P_one_bond_lp, G.
    - apply P_two_lp, P_rot3, G.
    - apply P_three_lp, P_rot3, G.
  Qed.

  Lemma P_water_try_donor o donor u : Good u -> Good (water_try_donor size D o donor u).
  Proof.
    intros G. unfold water_try_donor. destruct (t_enabled o); [|exact G].
    apply P_by_bonds; try exact G.
    - destruct (t_hbond o); [|apply P_remove_delete]; apply P_create_add, G.
    - apply P_one_bond_h, G.
    - apply P_two_h, P_rot3, G.
    - apply P_three_h, P_rot3, G.
  Qed.

  Lemma P_water_try_acceptor o acc u : Good u -> Good (water_try_acceptor size D o acc u).
  Proof.
    intros G. unfold water_try_acceptor. destruct (t_enabled o); [|exact G].
    apply P_by_bonds; try exact G.
    - destruct (t_hbond o); [apply P_create_add|]; exact G.
    - apply P_one_bond_lp, G.
    - apply P_two_lp, P_rot3, G.
    - apply P_three_lp, P_rot3, G.
  Qed.

  Theorem T_protocol_try_donor_acceptor_disciplined o a u : Good u ->
    Good (alcoholic_try_donor size D o a u) /\ Good (alcoholic_try_acceptor size D o a u) /\
    Good (water_try_donor size D o a u) /\ Good (water_try_acceptor size D o a u).
  Proof.
    intros G. split; [|split; [|split]].
    - apply P_alcoholic_try_donor, G.
    - apply P_alcoholic_try_acceptor, G.
    - apply P_water_try_donor, G.
    - apply P_water_try_acceptor, G.
  Qed.

  (* what the loop of finalize keeps *)
  Definition Rotating (pv h atom : nat) (u : ustate) : Prop :=
    Good u /\ present u h = true /\ pv_h pv h (bonds u atom).

  Lemma P_turn pv h atom qa g u : Rotating pv h atom u ->
    Rotating pv h atom (u_query qa (u_add size D h (u_rotate pv atom g (u_remove h u)))).
  Proof.
    intros (G & Hp & B). unfold u_rotate. rewrite writes_posn.
    split; [|exact (conj Hp B)]. apply P_query, P_add, (P_posn_pv_h pv h atom).
    - exact B.
    - apply P_remove; assumption.
    - intros a. apply wr_out.
  Qed.

  Lemma P_loop n pv h atom qa f u : Rotating pv h atom u ->
    Rotating pv h atom (for_i n (fun i u => u_query qa (u_add size D h (u_rotate pv atom (f i) (u_remove h u)))) u).
  Proof. apply for_i_ind. intros i. apply P_turn. Qed.

  Lemma P_finalize_one n atom qa p bs f best u : Good u -> List.length (bonds u atom) = 1%nat ->
    let pv := hd 0%nat (bonds u atom) in
    let h := next u in
    let u1 := for_i n (fun i u => u_query qa (u_add size D h (u_rotate pv atom (f i) (u_remove h u))))
                (u_add size D h (make_atom_with_one_bond p bs u)) in
    Good (match best with Some q => rewrite size D h q u1 | None => u1 end).
  Proof.
    intros G E. destruct (create_pv_h u p bs atom (good_alloc G) E) as (pv & -> & B). cbv zeta. cbn [hd].
    destruct best; [apply P_rewrite|]; refine (proj1 (P_loop n pv (next u) atom qa f _ _));
      (split; [apply P_add, P_create, G | split; [apply upd_nat_same | exact B]]).
  Qed.

  (* Water.finalize ends with an optional "finalize once more" *)
  Lemma P_when (b : bool) (k : ustate -> ustate) u :
    (forall u, Good u -> Good (k u)) -> Good u -> Good (if b then k u else u).
  Proof. intros Hk G. destruct b; [apply Hk|]; exact G. Qed.

  Lemma P_alcoholic_finalize o atom u : Good u -> Good (alcoholic_finalize size D o atom u).
  Proof.
    intros G. unfold alcoholic_finalize. destruct (f_skip o); [exact G|].
    apply P_by_bonds; try exact G.
    - apply P_finalize_one, G.
    - destruct (f_back o); [apply P_rewrite|]; apply P_rewrite, P_query, P_create_add, P_rot3, G.
    - apply P_create_add, P_rot3, G.
  Qed.

  Lemma P_water_finalize fuel o atom : forall u, Good u -> Good (water_finalize size D fuel o atom u).
  Proof.
    induction fuel as [|k IH]; intros u G; cbn [water_finalize]; [exact G|].
    destruct (f_skip (o k)); [exact G|].
    apply P_by_bonds; try exact G.
    - apply IH, P_create_add, P_query, G.
    - intros E. apply P_when; [exact IH|]. apply P_finalize_one; assumption.
    - apply P_when; [exact IH|].
      destruct (f_near (o k)); [destruct (f_back (o k)); [apply P_rewrite|]; apply P_query, P_rewrite|];
        apply P_query, P_create_add, P_rot3, G.
    - apply P_create_add, P_rot3, G.
  Qed.

  Theorem T_protocol_finalize_disciplined u : Good u ->
    (forall o atom, Good (alcoholic_finalize size D o atom u)) /\
    (forall fuel o atom, Good (water_finalize size D fuel o atom u)).
  Proof.
    intros G. split; intros.
    - apply P_alcoholic_finalize, G.
    - apply P_water_finalize, G.
  Qed.

  Lemma P_flip_init atoms f news u : Good u -> Good (flip_init size D atoms f news u).
  Proof.
    intros G. unfold flip_init. apply for_each_ind; [intros; apply P_create_add; assumption|].
    apply P_set_dihedral, G.
  Qed.

  Lemma P_flip_finalize fixed dels u : Good u -> Good (flip_finalize fixed dels u).
  Proof. intros G. unfold flip_finalize. destruct fixed; [exact G | apply P_remove_delete_all, G]. Qed.

  Lemma P_alcoholic_init has a u : Good u -> Good (alcoholic_init has a u).
  Proof. intros G. unfold alcoholic_init. destruct has; [apply P_remove_delete|]; exact G. Qed.

  Lemma P_try_both_undo mine other ok undo u :
    (forall u, Good u -> Good (mine u)) -> (forall u, Good u -> Good (other u)) ->
    Good u -> Good (try_both_undo mine other ok undo u).
  Proof.
    intros Hm Ho G. unfold try_both_undo. destruct ok; [apply Ho, Hm, G|].
    destruct undo; [apply P_remove_delete|]; apply Ho, Hm, G.
  Qed.

  Lemma P_carboxylic_init steps u : Good u -> Good (carboxylic_init size D steps u).
  Proof.
    unfold carboxylic_init. apply for_each_ind. intros [[d1 d2] n] u' G.
    apply P_create_add, P_set_dihedral, P_set_dihedral, G.
  Qed.

  Lemma P_carboxylic_rename del u : Good u -> Good (carboxylic_rename del u).
  Proof. intros G. destruct del; [apply P_remove_delete|]; exact G. Qed.

  Lemma P_carboxylic_fix dels ren u : Good u -> Good (carboxylic_fix dels ren u).
  Proof. intros G. apply P_carboxylic_rename, P_remove_delete_all, G. Qed.

  Lemma P_carboxylic_try_acceptor del ren u : Good u -> Good (carboxylic_try_acceptor del ren u).
  Proof.
    intros G. unfold carboxylic_try_acceptor.
    destruct ren; [apply P_carboxylic_rename|]; destruct del; try apply P_remove_delete; exact G.
  Qed.

  Lemma P_carboxylic_finalize fixed qs dels ren u : Good u -> Good (carboxylic_finalize fixed qs dels ren u).
  Proof.
    intros G. unfold carboxylic_finalize. destruct fixed; [exact G|].
    destruct ren; [apply P_carboxylic_rename|]; apply P_remove_delete_all, P_queries, G.
  Qed.

  Theorem T_protocol_carboxylic_disciplined u : Good u ->
    (forall steps, Good (carboxylic_init size D steps u)) /\
    (forall del ren, Good (carboxylic_try_acceptor del ren u)) /\
    (forall dels ren, Good (carboxylic_fix dels ren u)) /\
    (forall fixed qs dels ren, Good (carboxylic_finalize fixed qs dels ren u)).
  Proof.
    intros G. split; [|split; [|split]]; intros.
    - apply P_carboxylic_init, G.
    - apply P_carboxylic_try_acceptor, G.
    - apply P_carboxylic_fix, G.
    - apply P_carboxylic_finalize, G.
  Qed.

  Lemma P_debump_run sc u : Good u -> Good (debump_run size D sc u).
  Proof.
    unfold debump_run. apply for_each_ind. intros [[atoms f] | a] u' G; [apply P_set_dihedral | apply P_query]; exact G.
  Qed.

  (* [detect] is [for_each qs u_query]; [flip_fix_flip] and [complete_tail] are
     [remove_delete_all]; CUndo runs [remove_delete] *)
  Theorem run_call_good c u : Good u -> Good (run_call size D c u).
  Proof.
    intros G. destruct c; cbn [run_call].
    - apply P_set_dihedral, G.
    - apply P_debump_run, G.
    - apply P_queries, G.
    - apply P_flip_init, G.
    - apply P_remove_delete_all, G.
    - apply P_flip_finalize, G.
    - apply P_alcoholic_init, G.
    - apply P_alcoholic_try_donor, G.
    - apply P_alcoholic_try_acceptor, G.
    - apply P_water_try_donor, G.
    - apply P_water_try_acceptor, G.
    - apply P_remove_delete, G.
    - apply P_alcoholic_finalize, G.
    - apply P_water_finalize, G.
    - apply P_remove_delete_all, G.
    - apply P_carboxylic_init, G.
    - apply P_carboxylic_try_acceptor, G.
    - apply P_carboxylic_fix, G.
    - apply P_carboxylic_finalize, G.
  Qed.

  Theorem run_calls_good cl : forall u, Good u -> Good (run_calls size D cl u).
  Proof.
    unfold run_calls. induction cl as [|c r IH]; intros u G; cbn [fold_left]; [exact G|].
    apply IH, run_call_good, G.
  Qed.

  (* assign_cells on a new Cells object *)
  Lemma adds_registered : forall l c, Inv c -> NoDup l -> (forall a, In a l -> cell_of c a = None) ->
    let c' := fold_left (add_cell size D) l c in
    Inv c' /\ forall a, cell_of c' a <> None <-> cell_of c a <> None \/ In a l.
  Proof.
    induction l as [|a r IH]; intros c I N H; cbn [fold_left].
    - split; [exact I|]. intros a. cbn [In]. tauto.
    - inversion N as [|? ? Na Nr]; subst.
      destruct (IH (add_cell size D c a)) as (I1 & R1).
      + apply inv_add; [exact I | apply H; left; reflexivity].
      + exact Nr.
      + intros b Hb. rewrite cell_of_add.
        destruct (Nat.eqb_spec a b) as [<- | _]; [contradiction | apply H; right; exact Hb].
      + split; [exact I1|]. intros b. rewrite R1, cell_of_add. cbn [In].
        destruct (Nat.eqb_spec a b) as [<- | E]; [|tauto].
        split; intros _; [right | left; discriminate]; left; reflexivity.
  Qed.

  Lemma adds_cs : forall l u,
    for_each l (u_add size D) u = mkU (fold_left (add_cell size D) l (cs u)) (present u) (bonds u) (next u) (qlog u).
  Proof.
    unfold for_each. induction l as [|a r IH]; intros u; cbn [fold_left]; [destruct u; reflexivity|].
    rewrite IH. reflexivity.
  Qed.

  Theorem P_assign atoms u0 : NoDup atoms -> (forall a, In a atoms <-> present u0 a = true) -> alloc u0 ->
    Good (assign_cells size D atoms u0).
  Proof.
    intros N H A. unfold assign_cells. rewrite adds_cs. cbn [cs present bonds next qlog].
    destruct (adds_registered atoms (init (posn (cs u0))) (inv_init size D _) N (fun _ _ => eq_refl)) as (I & R).
    apply GoodX_intro; [exact A | | constructor]. split; [exact I|]. split; [|split].
    - intros a Ha. apply R in Ha as [Ha | Ha]; [contradiction | apply H, Ha].
    - intros a Ha. left. apply R. right. apply H, Ha.
    - intros ? [=].
  Qed.

  (* a truthful cell list answers like brute force over the atoms of the structure *)
  Theorem consistent_query_exact c pr a b c0 :
    consistent c pr None -> 0 <= c0 <= D * size -> pr a = true ->
    (In b (filter (within c0 c a) (get_near_cells size c a)) <->
     pr b = true /\ b <> a /\ within c0 c a b = true).
  Proof.
    intros (I & G & A & _) Hc Ha.
    assert (R : forall x, pr x = true <-> registered c x).
    { intros x. split; [intros P; destruct (A x P) as [R | [=]]; exact R | apply G]. }
    rewrite (query_exact size D Hsize HD c a b c0 I Hc (proj1 (R a) Ha)), R. reflexivity.
  Qed.

  (* every logged block was used for the atom it was queried for and, filtered by distance, was
     the brute-force answer over the atoms then in the structure; so is any query now *)
  Definition answers_exact (u : ustate) : Prop :=
    (forall q, In q (qlog u) -> q_used q = q_atom q) /\
    (forall q, In q (qlog u) -> q_present q (q_used q) = true ->
       forall b c0, 0 <= c0 <= D * size ->
       (In b (filter (within c0 (q_cs q) (q_used q)) (get_near_cells size (q_cs q) (q_atom q))) <->
        q_present q b = true /\ b <> q_used q /\ within c0 (q_cs q) (q_used q) b = true)) /\
    (forall a, present u a = true -> forall b c0, 0 <= c0 <= D * size ->
       (In b (filter (within c0 (cs u) a) (get_near_cells size (cs u) a)) <->
        present u b = true /\ b <> a /\ within c0 (cs u) a b = true)).

  Theorem good_answers u : Good u -> answers_exact u.
  Proof.
    intros G. pose proof (good_consistent G) as C. pose proof (good_log G) as Q.
    rewrite Forall_forall in Q. split; [|split].
    - intros q Hq. apply (Q q Hq).
    - intros q Hq Ha b c0 Hc. destruct (Q q Hq) as [Cq E]. rewrite E in *.
      apply consistent_query_exact; auto.
    - intros a Ha b c0 Hc. apply consistent_query_exact; auto.
  Qed.

  Theorem histories_of_protocols atoms u0 cl :
    NoDup atoms -> (forall a, In a atoms <-> present u0 a = true) -> alloc u0 ->
    answers_exact (run_calls size D cl (assign_cells size D atoms u0)).
  Proof. intros N H A. exact (good_answers _ (run_calls_good cl _ (P_assign atoms u0 N H A))). Qed.
End P.

(* atoms 0 and 1 of one group lie in different cells (x = 4.5 and x = 5.5, size 5, D = 10);
   atom 2 at x = 10.4 is 4.9 from atom 1 and 5.9 from atom 0.  The block
   queried for atom 0 and reused for atom 1 does not contain atom 2 (it lies two cells from
   atom 0), although atom 2 is within range of atom 1; the block queried for atom 1 has it. *)
Definition reuse_u : ustate :=
  assign_cells 5 10 [0%nat; 1%nat; 2%nat]
    (mkU (mk (fun _ => []) (fun _ => None)
             (fun a => match a with 0%nat => (45, 0, 0) | 1%nat => (55, 0, 0) | _ => (104, 0, 0) end))
         (fun a => Nat.ltb a 3) (fun _ => []) 3 []).

Theorem block_reuse_misses :
  Good 5 10 reuse_u /\
  let q := mkQ 0%nat 1%nat (cs reuse_u) (present reuse_u) in
  q_present q 2%nat = true /\ within 50 (q_cs q) (q_used q) 2%nat = true /\
  ~ In 2%nat (get_near_cells 5 (q_cs q) (q_atom q)) /\
  In 2%nat (get_near_cells 5 (q_cs q) (q_used q)).
Proof.
  split.
  - apply P_assign.
    + repeat constructor; cbn; intuition lia.
    + intros a. cbn [present In]. destruct a as [|[|[|a]]]; cbn; intuition (try lia; try discriminate).
    + intros a Ha. cbn [next present bonds] in *. split; [apply Nat.ltb_ge; exact Ha | reflexivity].
  - vm_compute. repeat split; try reflexivity; intuition discriminate.
Qed.

(* water oxygen 0 with H1 = 1 (pivot) and H2 = 2 at x = 5.0 exactly (cell 5); atom 3 at
   x = 0.5.  Coordinates are numerators over D = 10, cell size 5.  Whatever the two
   rotations produce, H2 is written back to x = 5.0 and the query from atom 3 finds it.
   (Before e1a3cf3 a third rotation brought it back to 4.999999999999999, listed in cell 5
   but lying in cell 0.) *)
Definition f6_u0 : ustate :=
  mkU (mk (fun _ => []) (fun _ => None)
          (fun a => match a with 0%nat => (40, 0, 0) | 1%nat => (38, 8, 0) | 2%nat => (50, 0, 0) | _ => (5, 0, 0) end))
      (fun a => Nat.ltb a 4) (fun a => match a with 0%nat => [1%nat; 2%nat] | 1%nat => [0%nat] | 2%nat => [0%nat] | _ => [] end)
      4 [].
Definition f6_u : ustate := assign_cells 5 10 [0%nat; 1%nat; 2%nat; 3%nat] f6_u0.
Definition f6_g (i m : nat) : pos := match i with 0%nat => (41, 9, 3) | _ => (41, -2, -9) end.

Example get_positions_regression :
  let u' := get_positions_with_two_bonds 0%nat f6_g f6_u in
  posn (cs u') 2%nat = (50, 0, 0) /\ cell_of (cs u') 2%nat = Some (5, 0, 0) /\
  filter (within 50 (cs u') 3%nat) (get_near_cells 5 (cs u') 3%nat) = [0%nat; 1%nat; 2%nat].
Proof. vm_compute. repeat split. Qed.

(* non-vacuity of the history theorem: a window with a rotation, a created and
   re-bucketed hydrogen, a get_positions call and queries, with a non-empty answer *)
Example history_nonvacuous :
  let o := mkFin false (42, 5, 0) [0%nat] (fun i m => (42, 5, Z.of_nat i)) (Some (43, 4, 1)) (0, 0, 0) false true false in
  let t := mkTry true (41, -3, 2) [0%nat] (fun i m => (60, 60, Z.of_nat i)) true true (39, 2, -5) (Some (41, -3, 2)) in
  let u0 := mkU (mk (fun _ => []) (fun _ => None)
                    (fun a => match a with 0%nat => (40, 0, 0) | 1%nat => (38, 8, 0) | _ => (-1, 0, 0) end))
                (fun a => Nat.ltb a 3) (fun a => match a with 0%nat => [1%nat] | 1%nat => [0%nat] | _ => [] end) 3 [] in
  let u := run_calls 5 10 [CSetDihedral [1%nat] (fun _ => (38, 9, 1)); CAlcFinalize o 0%nat; CAlcTryAcceptor t 0%nat; CDetect [0%nat]] (assign_cells 5 10 [0%nat; 1%nat; 2%nat] u0) in
  List.length (qlog u) = 19%nat /\ present u 3%nat = true /\ present u 4%nat = true /\
  posn (cs u) 3%nat = (43, 4, 1) /\
  filter (within 50 (cs u) 0%nat) (get_near_cells 5 (cs u) 0%nat) = [2%nat; 4%nat; 1%nat; 3%nat].
Proof. vm_compute. repeat split. Qed.
