(* C07: concrete inputs - non-vacuity of the guards, the witnesses that show the
   two design guards (G2 blank-chain segments, G5 alias names) cannot be dropped,
   and regression examples: the inputs of the findings C07-F3 .. C07-F9 (each
   replayed on /repo by the harness corpus). *)
From Coq Require Import String Ascii List Arith NArith ZArith Bool Lia Permutation.
From PV Require Import Lib.Strings Lib.Decimal Model.PdbRead Model.Group Model.PdbSpec
  Proofs.PdbRead Proofs.Group Proofs.Ingest Proofs.Ingest2.
Import ListNotations.
Local Open Scope string_scope.

Definition wtab : deftab :=
  [("ALA", (KAmino, [("HN", "H")])); ("GLY", (KAmino, [])); ("HOH", (KWater, [("OW", "O")]))].

Definition eol (l : list string) : list string := map (fun s => s ++ nl) l.

(* a non-trivial file meeting the whole guard: header, two models, alt-loc
   duplicate, blank line, CRLF, short line, unknown record, negative resSeq with
   insertion code, TER, water *)
Definition ex_ok : list string :=
  [ "HEADER    TEST" ++ nl;
    "MODEL        1" ++ nl;
    "ATOM      1  N  AALA A   1      11.000  12.000  13.000  1.00  0.00           N" ++ nl;
    "ATOM      2  N  BALA A   1      11.500  12.000  13.000  1.00  0.00           N" ++ nl;
    "   " ++ nl;
    "ATOM      3  CA  ALA A   1      12.000  12.000  13.000" ++ bs [13; 10]%N;
    "FOO bar" ++ nl;
    "ATOM      4  N   GLY A  -2A     14.000  12.000  13.000  1.00  0.00           N" ++ nl;
    "TER" ++ nl;
    "HETATM    5  O   HOH A 100      20.000  12.000  13.000  1.00  0.00           O" ++ nl;
    "ENDMDL" ++ nl;
    "MODEL        2" ++ nl;
    "ATOM      6  N   ALA A   1      31.000  12.000  13.000  1.00  0.00           N" ++ nl;
    "ENDMDL" ++ nl;
    "END" ++ nl ].

Lemma ex_ok_guard :
  guard py_float_ok wtab ex_ok = true /\
  guard_models py_float_ok ex_ok = true /\
  serials_of (ingest py_float_ok wtab false ex_ok) = [1; 3; 4; 5]%Z /\
  serials_of (ingest py_float_ok wtab true ex_ok) = [1; 3; 4]%Z /\
  List.length (cols_read ex_ok) = 4.
Proof.
  split; [vm_compute; reflexivity|]. split; [vm_compute; reflexivity|].
  split; [vm_compute; reflexivity|]. split; vm_compute; reflexivity.
Qed.

Definition conclusion (tab : deftab) (lines : list string) : Prop :=
  exists rs, ingest py_float_ok tab false lines = Done rs /\
    Permutation (map a_src (all_atoms rs)) (map strip (cols_read lines)).

(* the conclusion needs as many atoms as selected lines *)
Lemma conclusion_length tab lines :
  conclusion tab lines ->
  List.length (serials_of (ingest py_float_ok tab false lines)) = List.length (cols_read lines).
Proof.
  intros [rs [E P]]. rewrite E. apply Permutation_length in P. rewrite !map_length in P.
  simpl. rewrite map_length. exact P.
Qed.

(* regression, the input of finding C07-F3: END in front of the second MODEL *)

Definition w_model : list string := eol
  [ "MODEL        1";
    "ATOM      1  N   ALA A   1      11.000  12.000  13.000  1.00  0.00           N";
    "ENDMDL";
    "END";
    "MODEL        2";
    "ATOM      2  N   ALA A   1      21.000  12.000  13.000  1.00  0.00           N";
    "ATOM      3  N   GLY A   2      22.000  12.000  13.000  1.00  0.00           N";
    "ENDMDL";
    "END" ].

Lemma model_end_regression :
  guard py_float_ok wtab w_model = true /\
  serials_of (ingest py_float_ok wtab false w_model) = [1]%Z.
Proof. split; vm_compute; reflexivity. Qed.

(* regression, the input of finding C07-F4: HETATM water with a five-digit serial *)

Definition w_water : list string := eol
  [ "ATOM      1  N   ALA A   1      11.000  12.000  13.000  1.00  0.00           N";
    "HETATM 9999  O   HOH A 500      20.000  12.000  13.000  1.00  0.00           O";
    "HETATM10000  O   HOH A 501      21.000  12.000  13.000  1.00  0.00           O" ].

Lemma water_serial_regression :
  forallb (g_line py_float_ok) w_water = true /\
  serials_of (ingest py_float_ok wtab true w_water) = [1]%Z /\
  serials_of (ingest py_float_ok wtab false w_water) = [1; 9999; 10000]%Z.
Proof. split; [vm_compute; reflexivity|]. split; vm_compute; reflexivity. Qed.

(* regression, the input of finding C07-F5: an identity listed again after its residue *)

Definition w_noncontig : list string := eol
  [ "ATOM      1  N  AALA A   1      11.000  12.000  13.000  1.00  0.00           N";
    "ATOM      2  N   GLY A   2      12.000  12.000  13.000  1.00  0.00           N";
    "ATOM      3  N  BALA A   1      11.500  12.000  13.000  1.00  0.00           N" ].

Lemma noncontiguous_regression :
  guard py_float_ok wtab w_noncontig = true /\
  serials_of (ingest py_float_ok wtab false w_noncontig) = [1; 2]%Z /\
  List.length (cols_read w_noncontig) = 2.
Proof. split; [vm_compute; reflexivity|]. split; vm_compute; reflexivity. Qed.

(* regression, the input of finding C07-F6: blank chain next to an explicit chain A.
   It is outside G2, but the conclusion holds on it: the blank chain gets the first
   letter the file does not use (B; aa824dd) *)

Definition w_letter : list string := eol
  [ "ATOM      1  N   ALA     1      11.000  12.000  13.000  1.00  0.00           N";
    "ATOM      2  N   ALA A   1      12.000  12.000  13.000  1.00  0.00           N";
    "TER" ].

Lemma lettering_regression :
  serials_of (ingest py_float_ok wtab false w_letter) = [2; 1]%Z /\
  List.length (cols_read w_letter) = 2 /\
  conclusion wtab w_letter.
Proof.
  split; [vm_compute; reflexivity|]. split; [vm_compute; reflexivity|].
  unfold conclusion. eexists. split; [vm_compute; reflexivity|].
  vm_compute. apply perm_swap.
Qed.

(* design guard G2: blank chain ids in two TER segments
   (TER ends a chain: the two records are atoms of two chains, lettered A and B;
   the raw-column identity of cols_read sees one identity.  By design.) *)

Definition w_segments : list string := eol
  [ "ATOM      1  N   ALA     1      11.000  12.000  13.000  1.00  0.00           N";
    "TER";
    "ATOM      2  N   ALA     1      12.000  12.000  13.000  1.00  0.00           N";
    "TER" ].

Lemma segments_refuted :
  exists lines,
    forallb (g_line py_float_ok) lines = true /\
    forallb (alias_ok wtab) (lsegs [] 0 [] (flat_map (line_recs py_float_ok) lines)) = true /\
    serials_of (ingest py_float_ok wtab false lines) = [1; 2]%Z /\
    List.length (cols_read lines) = 1 /\
    ~ conclusion wtab lines.
Proof.
  exists w_segments. split; [vm_compute; reflexivity|]. split; [vm_compute; reflexivity|].
  split; [vm_compute; reflexivity|]. split; [vm_compute; reflexivity|].
  intros C. apply conclusion_length in C. vm_compute in C. discriminate.
Qed.

(* design guard G5: two alias names of one atom listed in one residue
   (HN is the definition's alternative name of H: both records become "H" and
   the second is dropped.  By design of the naming scheme.) *)

Definition w_alias : list string := eol
  [ "ATOM      1  HN  ALA A   1      11.000  12.000  13.000  1.00  0.00           H";
    "ATOM      2  H   ALA A   1      12.000  12.000  13.000  1.00  0.00           H" ].

Lemma alias_refuted :
  exists lines,
    forallb (g_line py_float_ok) lines = true /\
    inert (flat_map (line_recs py_float_ok) lines) = true /\
    serials_of (ingest py_float_ok wtab false lines) = [1]%Z /\
    List.length (cols_read lines) = 2 /\
    ~ conclusion wtab lines.
Proof.
  exists w_alias. split; [vm_compute; reflexivity|]. split; [vm_compute; reflexivity|].
  split; [vm_compute; reflexivity|]. split; [vm_compute; reflexivity|].
  intros C. apply conclusion_length in C. vm_compute in C. discriminate.
Qed.

(* the inputs below are for the theorems about ALL line lists (guard2, cols_read2) *)

Definition conclusion2 (tab : deftab) (lines : list string) : Prop :=
  exists rs, ingest py_float_ok tab false lines = Done rs /\
    Permutation (map a_src (all_atoms rs)) (map strip (cols_read2 py_float_ok lines)).

(* non-vacuity of guard2 on a file that fails G1: leading blanks and a tab in front of
   coordinate lines, a whitespace-format line read through the fallback, a line cut
   inside the z field, a lower-case record name (unknown record), CRLF, blank line *)
Definition ex2 : list string :=
  [ "   ATOM      1  N   ALA A   1      11.000  12.000  13.000  1.00  0.00           N" ++ nl;
    bs [9]%N ++ "ATOM      2  CA  ALA A   1      12.000  12.000  13.000" ++ bs [13; 10]%N;
    "ATOM      3 1 2 3 4 5" ++ nl;
    "atom      4  O   ALA A   1      14.000  12.000  13.000  1.00  0.00           O" ++ nl;
    "  " ++ nl;
    "ATOM      5  N   GLY A   2      15.000  12.000  13.5" ++ nl;
    " END" ++ nl ].

Lemma ex2_guard :
  guard2 py_float_ok wtab ex2 = true /\
  forallb (g_line py_float_ok) ex2 = false /\
  existsb (raises py_float_ok) ex2 = false /\
  serials_of (ingest py_float_ok wtab false ex2) = [1; 2; 5; 3]%Z /\
  List.length (cols_read2 py_float_ok ex2) = 4 /\
  map (spec_line py_float_ok) (cols_read2 py_float_ok ex2) =
    [ Some "ATOM      1  N   ALA A   1      11.000  12.000  13.000  1.00  0.00           N";
      Some "ATOM      2  CA  ALA A   1      12.000  12.000  13.000";
      Some "ATOM      3 1 2 3 4 5   3          1       2       3     4     5";
      Some "ATOM      5  N   GLY A   2      15.000  12.000  13.5" ].
Proof.
  split; [vm_compute; reflexivity|]. split; [vm_compute; reflexivity|].
  split; [vm_compute; reflexivity|]. split; [vm_compute; reflexivity|].
  split; vm_compute; reflexivity.
Qed.

(* a line that raises makes the whole read fail loudly *)
Definition ex2_loud : list string :=
  [ "ATOM      1  N   ALA A   1      11.000  12.000  13.000  1.00  0.00           N" ++ nl;
    "ATOM      2  CA  ALA A   1      12.000  12.0" ++ nl ].

Lemma ex2_loud_raises :
  guard2 py_float_ok wtab ex2_loud = true /\ existsb (raises py_float_ok) ex2_loud = true /\
  ingest py_float_ok wtab false ex2_loud = Raised "ValueError".
Proof. split; [vm_compute; reflexivity|]. split; vm_compute; reflexivity. Qed.

(* regression, the input of finding C07-F7: a coordinate line without coordinates *)

Definition w_short : list string := eol
  [ "ATOM      1  N   ALA A   1      11.000  12.000  13.000  1.00  0.00           N";
    "ATOM      2  CA  ALA A   1";
    "ATOM      3  N   GLY A   2      13.000  12.000  13.000  1.00  0.00           N" ].

(* regression, the input of finding C07-F8: MODEL records without a number in columns 11-14 *)

Definition w_model_free : list string := eol
  [ "MODEL 1";
    "ATOM      1  N   ALA A   1      11.000  12.000  13.000  1.00  0.00           N";
    "ENDMDL";
    "MODEL 2";
    "ATOM      3  N   GLY A   2      13.000  12.000  13.000  1.00  0.00           N";
    "ENDMDL" ].

Lemma all_lines_regressions :
  (guard2 py_float_ok wtab w_short = true /\
   existsb (raises py_float_ok) w_short = true /\
   ingest py_float_ok wtab false w_short = Raised "ValueError") /\
  (guard2 py_float_ok wtab w_model_free = true /\
   existsb (raises py_float_ok) w_model_free = false /\
   serials_of (ingest py_float_ok wtab false w_model_free) = [1]%Z /\
   List.length (cols_read2 py_float_ok w_model_free) = 1).
Proof.
  split; [split; [vm_compute; reflexivity|]; split; vm_compute; reflexivity|].
  split; [vm_compute; reflexivity|]. split; [vm_compute; reflexivity|].
  split; vm_compute; reflexivity.
Qed.

(* a HET record its parser rejects (blank atom count) in front of HETATM records, with
   the other parsers' behaviour explicit: the HETATM records are all read *)
Definition w_het : list string := eol
  [ "HET    SO4  A 101           SULFATE";
    "ATOM      1  N   ALA A   1      11.000  12.000  13.000  1.00  0.00           N";
    "HETATM    2  S   SO4 A 101      12.000  12.000  13.000  1.00  0.00           S";
    "HET    SO4  A 102           SULFATE";
    "HETATM    3  S   SO4 A 102      13.000  12.000  13.000  1.00  0.00           S" ].

Lemma het_regression :
  serials_of (ingestG py_float_ok (fun _ => true) wtab false w_het) = [1; 2; 3]%Z /\
  serials_of (ingestG py_float_ok (fun _ => false) wtab false w_het) = [1; 2; 3]%Z.
Proof. split; vm_compute; reflexivity. Qed.

(* regression, the input of finding C07-F9: a UTF-8 byte order mark in front of the first record *)

Definition w_bom_text : string :=
  "ATOM      1  N   ALA A   1      11.000  12.000  13.000  1.00  0.00           N" ++ nl ++
  "ATOM      2  CA  ALA A   1      12.000  12.000  13.000  1.00  0.00           C" ++ nl.

Lemma bom_regression :
  serials_of (ingest py_float_ok wtab false (chunks_of_bytes w_bom_text)) = [1; 2]%Z /\
  serials_of (ingest py_float_ok wtab false (chunks_of_bytes (bom_bytes ++ w_bom_text))) = [1; 2]%Z.
Proof. split; vm_compute; reflexivity. Qed.

(* --drop-water with serial numbers shared by waters and non-waters *)

Definition w_dupserial : list string := eol
  [ "MODEL        1";
    "ATOM      1  N   ALA A   1      11.000  12.000  13.000  1.00  0.00           N";
    "ATOM      2  CA  ALA A   1      12.000  12.000  13.000  1.00  0.00           C";
    "HETATM    1  O   HOH A 500      20.000  12.000  13.000  1.00  0.00           O";
    "HETATM    2  O   TIP A 501      21.000  12.000  13.000  1.00  0.00           O";
    "ENDMDL";
    "MODEL        2";
    "HETATM    2  O   WAT A 500      30.000  12.000  13.000  1.00  0.00           O";
    "ENDMDL" ].

Lemma dupserial_example :
  guard2 py_float_ok wtab (filter (fun l => negb (is_water_line2 py_float_ok l)) w_dupserial) = true /\
  existsb (raises py_float_ok) w_dupserial = false /\
  map (fun a => (a_serial a, a_resname a))
      (match ingest py_float_ok wtab true w_dupserial with Done rs => all_atoms rs | _ => [] end) =
    [(1, "ALA"); (2, "ALA"); (2, "TIP")]%Z /\
  serials_of (ingest py_float_ok wtab false w_dupserial) = [1; 2; 1; 2]%Z.
Proof.
  split; [vm_compute; reflexivity|]. split; [vm_compute; reflexivity|]. split; vm_compute; reflexivity.
Qed.
