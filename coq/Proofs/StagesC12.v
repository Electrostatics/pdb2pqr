(* The C12 proof obligation on the GENERATED stage table (Generated/Stages.v).
   Moving print_pqr above the charge guard, wrapping a stage in a swallowing
   handler, or opening the output path early makes a lemma here fail. *)
From Coq Require Import String List Bool Arith.
From Coq Require Import ZArith.
From PV Require Import Model.Pipeline Proofs.Pipeline Generated.Stages.
From PV Require Model.States Generated.GuardC12.
Import ListNotations.
Local Open Scope string_scope.

(* only print_pqr may open the output path for writing; nothing is written to
   disk before it; every Compute / Rename / Render stage precedes it; no
   enclosing handler can swallow an exception *)
Lemma generated_c12_obligation : c12_obligation stages = true.
Proof. vm_compute. reflexivity. Qed.

(* The integrality guard must see the FINAL charges: it has to come after EVERY stage that can
   change a charge or the matched / missing atom lists (apply_force_field AND the --ligand block,
   which overwrites the ligand atoms' charges with the MOL2 ones).  In table terms: no Compute
   stage follows the last [raise_if_charge_err]; what follows may only rename, render, log,
   return or write.  (A guard moved up "to fail early" checks a total that the ligand block
   then changes: a non-integral ligand slips through and is written.) *)
Fixpoint after_last (n : string) (ds : list sdesc) : option (list sdesc) :=
  match ds with
  | [] => None
  | d :: r =>
    match after_last n r with
    | Some t => Some t
    | None => if String.eqb (sd_name d) n then Some r else None
    end
  end.

Definition guard_is_last_compute (ds : list sdesc) : bool :=
  match after_last "raise_if_charge_err" ds with
  | None => false
  | Some t => forallb (fun d => negb (kind_eqb (sd_kind d) Compute)) t
  end.

Lemma after_last_none n ds : after_last n ds = None -> forall i, positions_from n ds i = [].
Proof.
  induction ds as [|e r IH]; intros E i; [reflexivity|]. cbn in E |- *.
  destruct (after_last n r); [discriminate|].
  destruct (String.eqb (sd_name e) n); [discriminate|]. now apply IH.
Qed.

Lemma after_last_spec n ds t :
  after_last n ds = Some t ->
  exists pre g, ds = (pre ++ g :: t)%list /\ sd_name g = n /\ positions n t = [].
Proof.
  revert t. induction ds as [|d r IH]; intros t H; cbn in H; [discriminate|].
  destruct (after_last n r) as [t'|] eqn:E.
  - inversion H; subst t'. destruct (IH t eq_refl) as [pre [g [Hr [Hg Hp]]]].
    exists (d :: pre), g. subst r. auto.
  - destruct (String.eqb (sd_name d) n) eqn:En; [|discriminate]. inversion H; subst t.
    exists [], d. split; [reflexivity|]. split; [now apply String.eqb_eq|].
    exact (after_last_none n r E 0).
Qed.

Lemma guard_is_last_compute_spec ds :
  guard_is_last_compute ds = true ->
  exists pre g post, ds = (pre ++ g :: post)%list /\ sd_name g = "raise_if_charge_err"
    /\ positions "raise_if_charge_err" post = []
    /\ forall d, In d post -> sd_kind d <> Compute.
Proof.
  unfold guard_is_last_compute. destruct (after_last "raise_if_charge_err" ds) as [t|] eqn:E; [|discriminate].
  intros H. destruct (after_last_spec _ _ _ E) as (pre & g & Hds & Hg & Hlast).
  exists pre, g, t. repeat split; try assumption.
  intros d Hd. rewrite forallb_forall in H. specialize (H d Hd).
  intros K. rewrite K in H. discriminate.
Qed.

(* conjuncts 1-7: the charge guard, the "no atom received parameters" guard
   (raise_if_matched_atoms, /repo 7917ee7), the parameter lookup, the structure, file and
   option checks and the reader are in front of the writer.
   conjuncts 8-12: the guard sees the final charges - no Compute stage follows it, it comes
   after apply_force_field, and the summing loop loop_residue_charge in front of it comes
   after the --ligand block (loop_residue_tot_charge, assign_matched_atoms) *)
Lemma generated_guard_before_writer :
  all_before "raise_if_charge_err" "print_pqr" stages = true
  /\ all_before "raise_if_matched_atoms" "print_pqr" stages = true
  /\ all_before "apply_force_field" "print_pqr" stages = true
  /\ all_before "is_repairable" "print_pqr" stages = true
  /\ all_before "check_files" "print_pqr" stages = true
  /\ all_before "check_options" "print_pqr" stages = true
  /\ all_before "get_molecule" "print_pqr" stages = true
  /\ guard_is_last_compute stages = true
  /\ all_before "apply_force_field" "raise_if_charge_err" stages = true
  /\ all_before "loop_residue_tot_charge" "loop_residue_charge" stages = true
  /\ all_before "assign_matched_atoms" "loop_residue_charge" stages = true
  /\ all_before "loop_residue_charge" "raise_if_charge_err" stages = true.
Proof. vm_compute. repeat split; reflexivity. Qed.

(* the guard-order obligation is satisfiable and needed: a guard in front of the ligand block fails it *)
Example guard_order_nonvacuous :
  guard_is_last_compute
    [mk_sdesc "apply_force_field" "non_trivial" Compute [] [] [] false false;
     mk_sdesc "loop_residue_tot_charge" "non_trivial" Compute [] [] [] false false;
     mk_sdesc "raise_if_charge_err" "non_trivial" Compute [] [] [] false false;
     mk_sdesc "apply_name_scheme" "non_trivial" Rename [] [] [] false false;
     mk_sdesc "print_pqr" "main_driver" Output [] [] [("main.print_pqr", ["output_pqr"])] true false] = true
  /\ guard_is_last_compute
    [mk_sdesc "apply_force_field" "non_trivial" Compute [] [] [] false false;
     mk_sdesc "raise_if_charge_err" "non_trivial" Compute [] [] [] false false;
     mk_sdesc "loop_residue_tot_charge" "non_trivial" Compute [] [] [] false false;
     mk_sdesc "print_pqr" "main_driver" Output [] [] [("main.print_pqr", ["output_pqr"])] true false] = false
  /\ guard_is_last_compute [mk_sdesc "print_pqr" "main_driver" Output [] [] [] true false] = false.
Proof. repeat split; reflexivity. Qed.

(* The tolerance of the guard is the model's constant and nothing else: the call in
   main.non_trivial hands noninteger_charge the total only (or, explicitly, CHARGE_ERROR) - never
   a tolerance computed from the structure -, the default of utilities.noninteger_charge is
   CHARGE_ERROR, its test is |charge - round(charge)| > |tol|, and config.CHARGE_ERROR is exactly
   TOL / SCALE = 1e-3 of Model/States.v (guard_ok), the constant C12_guard_never_fires_<FF> and
   the differential tie of the guard block are stated against.  Generated/GuardC12.v is
   regenerated from the current sources (gen/guard_c12.py, fail-closed). *)
Definition guard_tolerance_ok : bool :=
  forallb (fun a => String.eqb a "CHARGE_ERROR" || String.eqb a "error_tol=CHARGE_ERROR") GuardC12.guard_extra_args
  && Nat.leb (List.length GuardC12.guard_extra_args) 1
  && String.eqb GuardC12.guard_default_tol "CHARGE_ERROR"
  && String.eqb GuardC12.guard_error_expr "abs(charge - round(charge))"
  && String.eqb GuardC12.guard_test "abs_error > abs(error_tol)"
  && Z.eqb GuardC12.charge_error_e8 States.TOL.

Lemma generated_guard_tolerance :
  guard_tolerance_ok = true /\ GuardC12.charge_error_e8 = States.TOL /\ (States.TOL * 1000 = States.SCALE)%Z.
Proof. vm_compute. repeat split; reflexivity. Qed.
