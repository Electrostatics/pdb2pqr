(* C07 - every coordinate record of the first model of a PDB input is ingested.
   Property theorems only; proofs are in Proofs/PdbRead.v, Group.v, Ingest.v,
   Ingest2.v, Other.v, FileLayer.v (universal statements) and Proofs/C07Witness.v
   (concrete inputs).  The models follow /repo, which contains the fixes of the
   findings C07-F3 .. C07-F9.

   Objects (Model/PdbRead.v, Model/Group.v, Model/PdbSpec.v):
     ingest fok tab dropw lines   pdb.read_pdb ; [main.drop_water] ; Biomolecule.__init__
                                  on the readline() chunks [lines]; fok = "float(text) succeeds"
                                  (oracle), tab = definition table (regenerated from /repo)
     cols_read lines              the independent fixed-column read: ATOM/HETATM lines in front
                                  of the second MODEL line, first listed per
                                  (chain, resSeq, iCode, name)
     guard fok tab lines          G1 every ATOM/HETATM/MODEL line starts in column 1 and is read
                                     by the column parser (no fallback, no ValueError), no
                                     EOF sentinel inside the list
                                  G2 (design) blank-chain lettering inert: no TER, or no blank
                                     chain on a non-water record (with TER records a blank
                                     chain id means "the chain of this TER segment")
                                  G5 (design) no two alias names of one atom inside one residue

   The guards of the theorems: C07_ingest_complete and C07_atom_fields are stated
   under guard = G1, G2, G5; C07_later_models_ignored under guard_models = G1, G2;
   C07_drop_water_iff under G1 alone (forallb g_line).  None of these guards
   restricts where MODEL/END/ENDMDL records stand (the second MODEL always ends
   the read: 03143cb, C07-F3), which serial numbers occur (record_type() =
   columns 1-6: f54c0bf, C07-F4), or whether an identity is listed again after
   its residue was closed (it is skipped: 02c497d, C07-F5).
   The two design guards cannot be dropped (C07_blank_chain_segments_refuted,
   C07_alias_names_refuted - behaviour by design, not defects).  Blank chain ids
   are lettered with identifiers the file does not use (aa824dd, C07-F6; its
   input is in C07_regressions), and G2 is needed all the same because the
   raw-column identity of cols_read cannot express TER-segment chains.  The
   invariance clauses (blank lines, unrecognised lines, line endings, trailing
   columns) hold with no guard.
   From C07_loud_or_complete on the theorems are about ALL line lists: in the
   place of G1 they carry G1' (no line is the EOF sentinel); guard2 = G1', G2, G5. *)
From Coq Require Import String Ascii List Arith NArith ZArith Bool Permutation.
From PV Require Import Lib.Strings Lib.Decimal Model.PdbRead Model.Group Model.PdbSpec
  Proofs.PdbRead Proofs.Group Proofs.Ingest Proofs.Ingest2 Proofs.Other Proofs.FileLayer Proofs.C07Witness.
Import ListNotations.
Local Open Scope string_scope.

(* the atoms of the Biomolecule are exactly the records the column read selects
   (as source lines: each selected line yields one atom, nothing else does) *)
Theorem C07_ingest_complete : forall (fok : string -> bool) (tab : deftab) (lines : list string),
  guard fok tab lines = true ->
  exists rs, ingest fok tab false lines = Done rs /\
    Permutation (map a_src (all_atoms rs)) (map strip (cols_read lines)).
Proof. exact ingest_complete. Qed.

(* and every atom carries the serial, chain, resSeq, iCode and coordinate text of
   the columns of its line *)
Theorem C07_atom_fields : forall (fok : string -> bool) (tab : deftab) (lines : list string)
  (rs : list resid),
  guard fok tab lines = true -> ingest fok tab false lines = Done rs ->
  forall a, In a (all_atoms rs) ->
    exists l, In l (cols_read lines) /\
      a_src a = strip l /\
      Some (a_serial a) = py_int (slice 6 11 l) /\
      a_chain a = strip (slice 21 22 l) /\
      Some (a_resseq a) = py_int (slice 22 26 l) /\
      a_icode a = strip (slice 26 27 l) /\
      a_x a = strip (slice 30 38 l) /\ a_y a = strip (slice 38 46 l) /\
      a_z a = strip (slice 46 54 l).
Proof. exact atom_fields. Qed.

(* a blank or whitespace-only line anywhere changes nothing (any file, with or
   without --drop-water, error outcomes included) *)
Theorem C07_blank_lines_irrelevant : forall (fok : string -> bool) (tab : deftab) (d : bool)
  (l1 : list string) (b : string) (l2 : list string),
  blank_line b -> ingest fok tab d (l1 ++ b :: l2) = ingest fok tab d (l1 ++ l2).
Proof. exact ingest_blank. Qed.

(* a line whose record name is not a PDB record name changes nothing *)
Theorem C07_unknown_lines_irrelevant : forall (fok : string -> bool) (tab : deftab) (d : bool)
  (l1 : list string) (u : string) (l2 : list string),
  unknown_line u -> ingest fok tab d (l1 ++ u :: l2) = ingest fok tab d (l1 ++ l2).
Proof. exact ingest_unknown. Qed.

(* \n, \r\n, missing final newline, trailing blanks/padding: two files whose lines
   have pairwise the same body followed by whitespace are ingested identically *)
Theorem C07_crlf_and_trailing : forall (fok : string -> bool) (tab : deftab) (d : bool)
  (ls ls' : list string),
  Forall2 same_body ls ls' -> ingest fok tab d ls = ingest fok tab d ls'.
Proof. exact ingest_same_body. Qed.

(* cutting a coordinate line anywhere at or after column 54 changes neither the
   exception class nor any field of the parsed record; the two results are
   compared through pforget, which blanks the two fields that hold line text
   (a_tok0, a_src) *)
Theorem C07_trailing_columns : forall (fok : string -> bool) (het : bool) (src l : string) (n : nat),
  54 <= n -> pforget (parse_cols fok het src (take n l)) = pforget (parse_cols fok het src l).
Proof. intros fok het src l n Hn. f_equal. apply parse_cols_take, Hn. Qed.

(* later models are ignored - for ALL line lists meeting G1, G2, wherever the
   MODEL/END/ENDMDL records stand (03143cb, C07-F3) *)
Theorem C07_later_models_ignored : forall (fok : string -> bool) (tab : deftab)
  (lines : list string),
  guard_models fok lines = true ->
  ingest fok tab false lines = ingest fok tab false (first_model false lines).
Proof. exact later_models_ignored. Qed.

(* --drop-water = deleting the water coordinate lines beforehand, for ALL line
   lists meeting G1, whatever the serial numbers (f54c0bf, C07-F4); without the
   flag waters are kept by C07_ingest_complete *)
Theorem C07_drop_water_iff : forall (fok : string -> bool) (tab : deftab)
  (lines : list string),
  forallb (g_line fok) lines = true ->
  ingest fok tab true lines =
  ingest fok tab false (filter (fun l => negb (is_water_line l)) lines).
Proof. exact drop_water_is_deletion. Qed.

(* regression examples, the inputs of the findings C07-F3 .. C07-F6: END in front
   of MODEL 2 (F3), HETATM10000 water (F4), alt-loc B listed after another
   residue (F5; meets the whole guard), blank chain next to an explicit chain A
   (F6; outside G2, the conclusion holds nevertheless) *)
Theorem C07_regressions :
  (guard py_float_ok wtab w_model = true /\
   serials_of (ingest py_float_ok wtab false w_model) = [1]%Z) /\
  (forallb (g_line py_float_ok) w_water = true /\
   serials_of (ingest py_float_ok wtab true w_water) = [1]%Z /\
   serials_of (ingest py_float_ok wtab false w_water) = [1; 9999; 10000]%Z) /\
  (guard py_float_ok wtab w_noncontig = true /\
   serials_of (ingest py_float_ok wtab false w_noncontig) = [1; 2]%Z /\
   List.length (cols_read w_noncontig) = 2) /\
  (serials_of (ingest py_float_ok wtab false w_letter) = [2; 1]%Z /\
   List.length (cols_read w_letter) = 2 /\
   conclusion wtab w_letter).
Proof.
  exact (conj model_end_regression (conj water_serial_regression
          (conj noncontiguous_regression lettering_regression))).
Qed.

(* G2 cannot be dropped (design): blank chain ids in two TER segments are two chains *)
Theorem C07_blank_chain_segments_refuted :
  exists lines,
    forallb (g_line py_float_ok) lines = true /\
    forallb (alias_ok wtab) (lsegs [] 0 [] (flat_map (line_recs py_float_ok) lines)) = true /\
    serials_of (ingest py_float_ok wtab false lines) = [1; 2]%Z /\
    List.length (cols_read lines) = 1 /\
    ~ conclusion wtab lines.
Proof. exact segments_refuted. Qed.

(* G5 cannot be dropped (design): HN and H of one alanine are one atom *)
Theorem C07_alias_names_refuted :
  exists lines,
    forallb (g_line py_float_ok) lines = true /\
    inert (flat_map (line_recs py_float_ok) lines) = true /\
    serials_of (ingest py_float_ok wtab false lines) = [1]%Z /\
    List.length (cols_read lines) = 2 /\
    ~ conclusion wtab lines.
Proof. exact alias_refuted. Qed.

(* non-vacuity: a 15-line file (header, two models, alt-loc duplicate, blank
   line, CRLF, line cut at column 54, unknown record, negative resSeq with
   insertion code, TER, water) meets the guards; 4 of its 6 coordinate
   records are selected, --drop-water removes exactly the water *)
Example C07_nonvacuous :
  guard py_float_ok wtab ex_ok = true /\
  guard_models py_float_ok ex_ok = true /\
  serials_of (ingest py_float_ok wtab false ex_ok) = [1; 3; 4; 5]%Z /\
  serials_of (ingest py_float_ok wtab true ex_ok) = [1; 3; 4]%Z /\
  List.length (cols_read ex_ok) = 4.
Proof. exact ex_ok_guard. Qed.

(* ALL line lists: the theorems from here on carry G1' where those above carry the
   column-1 / parses-by-columns guard G1.

   read_pdb strips every line, so the record a line holds is named by columns 1-6
   of the STRIPPED line (leading blanks/tabs are ignored; a lower-case or fused
   record name is an unknown record).  A coordinate line is read by fixed columns
   from [spec_line]: itself when it has more than 26 (ATOM) / 16 (HETATM) characters,
   else the fixed-column line pdb.read_atom rebuilds from the words of the line;
   when that cannot be built the read fails with ValueError (bd8c339).
   cols_read2 = coordinate lines in front of the second MODEL line (every MODEL
   line counts, 04a78e7), first listed per identity read from [spec_line].

   G1' = every line is a readline() chunk (not "").  No line needs more: a coordinate
   line without coordinates raises (bd8c339, C07-F7) and a MODEL record never fails
   (04a78e7, C07-F8).  guard2 = G1' + the two DESIGN guards G2
   (blank-chain lettering inert) and G5 (no two alias names of one atom in a
   residue), which C07_blank_chain_segments_refuted / C07_alias_names_refuted show
   cannot be dropped (behaviour by design). *)

(* loud or complete, for ALL line lists: the read either fails with ValueError -
   exactly when some coordinate line raises in its parser - or every coordinate
   line of the first model yields its atom; nothing is dropped silently *)
Theorem C07_loud_or_complete : forall (fok : string -> bool) (tab : deftab)
  (lines : list string),
  guard2 fok tab lines = true ->
  if existsb (raises fok) lines
  then ingest fok tab false lines = Raised "ValueError"
  else exists rs, ingest fok tab false lines = Done rs /\
         Permutation (map a_src (all_atoms rs)) (map strip (cols_read2 fok lines)).
Proof. exact loud_or_complete. Qed.

(* ... and each atom carries the fixed-column fields of the text [spec_line] names *)
Theorem C07_atom_fields_all_lines : forall (fok : string -> bool) (tab : deftab)
  (lines : list string) (rs : list resid),
  guard2 fok tab lines = true -> ingest fok tab false lines = Done rs ->
  forall a, In a (all_atoms rs) ->
    exists l l', In l (cols_read2 fok lines) /\ spec_line fok l = Some l' /\
      a_src a = strip l /\
      Some (a_serial a) = py_int (slice 6 11 l') /\
      a_chain a = strip (slice 21 22 l') /\
      Some (a_resseq a) = py_int (slice 22 26 l') /\
      a_icode a = strip (slice 26 27 l') /\
      a_x a = strip (slice 30 38 l') /\ a_y a = strip (slice 38 46 l') /\
      a_z a = strip (slice 46 54 l').
Proof. exact atom_fields2. Qed.

(* what ONE coordinate line does, for every stripped line s: it raises, or it is read
   by columns from eff_line (itself or the fallback line); it is never skipped *)
Theorem C07_coordinate_line_cases : forall (fok : string -> bool) (het : bool) (s : string),
  atom_outcome fok het s = ORaise \/
  (exists a l', atom_outcome fok het s = ORec (RAtom a) /\ eff_line fok het s = Some l' /\
                parse_cols fok het s l' = POk a).
Proof. exact atom_outcome_cases. Qed.

(* read_pdb on ALL chunk lists: None exactly when a coordinate line raises, else
   precisely the records of the lines, in order *)
Theorem C07_read_total : forall (fok : string -> bool) (lines : list string),
  forallb chunk_ok lines = true ->
  if existsb (raises fok) lines then read_pdb fok lines = None
  else exists e, read_pdb fok lines = Some (flat_map (line_recs fok) lines, e).
Proof. exact read_total. Qed.

(* later models are ignored, over ALL line lists that do not fail loudly (design
   guard G2; a raising coordinate line of a later model fails the whole read) *)
Theorem C07_later_models_ignored_all_lines : forall (fok : string -> bool) (tab : deftab)
  (lines : list string),
  forallb chunk_ok lines = true -> existsb (raises fok) lines = false ->
  inert (flat_map (line_recs fok) lines) = true ->
  ingest fok tab false lines = ingest fok tab false (first_model2 false lines).
Proof. exact later_models_all. Qed.

(* --drop-water = deleting the water coordinate lines, over ALL line lists that do
   not fail loudly (no other guard) *)
Theorem C07_drop_water_iff_all_lines : forall (fok : string -> bool) (tab : deftab)
  (lines : list string),
  forallb chunk_ok lines = true -> existsb (raises fok) lines = false ->
  ingest fok tab true lines =
  ingest fok tab false (filter (fun l => negb (is_water_line2 fok l)) lines).
Proof. exact drop_water_all. Qed.

(* --drop-water, complete statement: for ALL line lists, with the flag the read is
   loud or the atoms are exactly the NON-WATER coordinate lines of the first model
   (water = residue name HOH or WAT in the columns the record is read from; TIP, SOL,
   DOD ... are not waters), first listed per identity - whatever the serial numbers,
   chains or positions of waters and non-waters *)
Theorem C07_drop_water_complete : forall (fok : string -> bool) (tab : deftab) (lines : list string),
  forallb chunk_ok lines = true ->
  guard2 fok tab (filter (fun l => negb (is_water_line2 fok l)) lines) = true ->
  if existsb (raises fok) lines
  then ingest fok tab true lines = Raised "ValueError"
  else exists rs, ingest fok tab true lines = Done rs /\
         Permutation (map a_src (all_atoms rs))
           (map strip (cols_read2 fok (filter (fun l => negb (is_water_line2 fok l)) lines))).
Proof. exact drop_water_complete. Qed.

(* record level: drop_water tests the residue name and nothing else *)
Theorem C07_drop_water_by_residue_name : forall (a : atomrec) (recs : list rec),
  (In (RAtom a) recs -> mem_str (a_resname a) water_names = false -> In (RAtom a) (drop_water recs)) /\
  (tok0_ok a = true -> mem_str (a_resname a) water_names = true -> ~ In (RAtom a) (drop_water recs)).
Proof. intros a recs. split; [apply drop_water_keeps | apply drop_water_removes]. Qed.

(* a water and a non-water (and a TIP "water", and a later-model water) with the same
   serial numbers: --drop-water removes the HOH only *)
Example C07_drop_water_shared_serials :
  guard2 py_float_ok wtab (filter (fun l => negb (is_water_line2 py_float_ok l)) w_dupserial) = true /\
  existsb (raises py_float_ok) w_dupserial = false /\
  map (fun a => (a_serial a, a_resname a))
      (match ingest py_float_ok wtab true w_dupserial with Done rs => all_atoms rs | _ => [] end) =
    [(1, "ALA"); (2, "ALA"); (2, "TIP")]%Z /\
  serials_of (ingest py_float_ok wtab false w_dupserial) = [1; 2; 1; 2]%Z.
Proof. exact dupserial_example. Qed.

(* records of the OTHER classes (HET, SSBOND, CONECT, CRYST1, SEQRES, ..., unknown
   names): [ingestG] is the ingest with their parsers' behaviour explicit as an
   oracle oerr (true = KeyError/ValueError: the name goes on errlist and suppresses
   later records OF THAT NAME).  For EVERY oracle the result is that of the model
   that ignores them, because errlist suppression is an exact match on the record
   name and errlist never holds ATOM/HETATM/TER/END/MODEL. *)
Theorem C07_other_records_exact : forall (fok oerr : string -> bool) (tab : deftab) (d : bool)
  (lines : list string),
  ingestG fok oerr tab d lines = ingest fok tab d lines.
Proof. intros. apply ingestG_exact. Qed.

(* inserting ANY line that is neither a coordinate record nor TER/END/MODEL -
   parsable or not, known record name or not, ENDMDL included - changes nothing *)
Theorem C07_other_records_irrelevant : forall (fok : string -> bool) (tab : deftab)
  (oerr : string -> bool) (d : bool) (l1 : list string) (u : string) (l2 : list string),
  other_line u ->
  ingestG fok oerr tab d (l1 ++ u :: l2) = ingestG fok oerr tab d (l1 ++ l2).
Proof. exact other_records_irrelevant. Qed.

(* regression examples, the inputs of the findings C07-F7 and C07-F8: the line without
   coordinates fails the read loudly, "MODEL 1"/"MODEL 2" separate models; and a HET
   record its parser rejects does not hide HETATM records *)
Theorem C07_all_lines_regressions :
  ((guard2 py_float_ok wtab w_short = true /\
    existsb (raises py_float_ok) w_short = true /\
    ingest py_float_ok wtab false w_short = Raised "ValueError") /\
   (guard2 py_float_ok wtab w_model_free = true /\
    existsb (raises py_float_ok) w_model_free = false /\
    serials_of (ingest py_float_ok wtab false w_model_free) = [1]%Z /\
    List.length (cols_read2 py_float_ok w_model_free) = 1)) /\
  (serials_of (ingestG py_float_ok (fun _ => true) wtab false w_het) = [1; 2; 3]%Z /\
   serials_of (ingestG py_float_ok (fun _ => false) wtab false w_het) = [1; 2; 3]%Z).
Proof. exact (conj all_lines_regressions het_regression). Qed.

(* the FILE layer: io.get_pdb_file opens the file in universal-newline text mode.
   chunks_of_text t = the readline() chunks of a file whose decoded contents are t:
   "\r\n" and a lone "\r" end a line exactly like "\n"; chunks_of_bytes removes
   one leading UTF-8 byte order mark first (encoding="utf-8-sig").  For ANY bodies
   (free of CR/LF), ANY two assignments of LF / CRLF / CR to the lines (no lone CR
   directly in front of an LF, which would BE a CRLF) and any unterminated last
   line, the chunks - hence ingest - are the same.  (A CR-only "classic Mac" file
   reads like the LF file.) *)
Theorem C07_line_endings_irrelevant : forall (fok : string -> bool) (tab : deftab) (d : bool)
  (ls ls' : list (string * FileLayer.eol)) (last : string),
  map fst ls = map fst ls' ->
  forallb no_eol (map fst ls) = true -> no_eol last = true ->
  seq_ok ls last = true -> seq_ok ls' last = true ->
  ingest fok tab d (chunks_of_text (file_text ls last)) =
  ingest fok tab d (chunks_of_text (file_text ls' last)).
Proof. exact line_endings_irrelevant. Qed.

(* the side condition holds whenever the file has no EMPTY line (whitespace-only
   lines are fine); an empty LF-terminated line after a CR-terminated one merges
   into one CRLF and only a blank line vanishes (C07_blank_lines_irrelevant) *)
Theorem C07_line_endings_side_condition : forall (ls : list (string * FileLayer.eol)) (last : string),
  forallb (fun b => negb (is_empty b) && no_eol b) (map fst ls) = true -> no_eol last = true ->
  seq_ok ls last = true.
Proof. exact seq_ok_nonempty. Qed.

Example C07_line_endings_nonvacuous :
  seq_ok (with_eols [CR; CR; CR; CR]) "END" = true /\
  seq_ok (with_eols [CR; CRLF; LF; CR]) "END" = true /\
  seq_ok (with_eols [CR; LF; LF; LF]) "END" = false /\
  chunks_of_bytes (file_text (with_eols [CR; CR; CR; CR]) "END") =
    (map (fun b => b ++ nl)%string fl_bodies ++ ["END"])%list /\
  chunks_of_bytes (bom_bytes ++ file_text (with_eols [CR; CRLF; LF; CR]) "END")%string =
    (map (fun b => b ++ nl)%string fl_bodies ++ ["END"])%list /\
  List.length (chunks_of_bytes (file_text (with_eols [CR; LF; LF; LF]) "END")) = 4.
Proof. exact fl_example. Qed.

(* the byte order mark of a UTF-8 file is not text (d3864ae, C07-F9): for ANY
   contents, the file with a leading BOM gives the chunks of the file without it *)
Theorem C07_bom_irrelevant : forall t : string,
  chunks_of_bytes (bom_bytes ++ t)%string = chunks_of_text t /\
  (prefix_of bom_bytes t = false -> chunks_of_bytes t = chunks_of_text t).
Proof. intros t. split; [apply chunks_bom | apply chunks_no_bom]. Qed.

Theorem C07_bom_regression :
  serials_of (ingest py_float_ok wtab false (chunks_of_bytes w_bom_text)) = [1; 2]%Z /\
  serials_of (ingest py_float_ok wtab false (chunks_of_bytes (bom_bytes ++ w_bom_text))) = [1; 2]%Z.
Proof. exact bom_regression. Qed.

(* the other cut positions of a coordinate line (C07_trailing_columns covers k >= 54) *)

(* cut after column 27..46 of a line longer than 26 characters: the z field is empty,
   so ValueError whenever float("") raises (hypothesis fok "" = false) *)
Theorem C07_cut_before_z : forall (fok : string -> bool) (het : bool) (src l : string) (k : nat),
  27 <= k -> k <= 46 -> 26 < String.length l -> fok "" = false ->
  parse_cols fok het src (take k l) = PVal.
Proof. exact cut_before_z. Qed.

(* cut inside the z field (46..54): if the record is accepted at all, serial, name,
   residue name, chain, resSeq, iCode, x and y are those of the uncut line, and z is
   SILENTLY the first k-46 columns of its z field *)
Theorem C07_cut_inside_z : forall (fok : string -> bool) (het : bool) (src l : string) (k : nat)
  (a : atomrec),
  46 <= k -> k <= 54 -> parse_cols fok het src (take k l) = POk a ->
  a_src a = src /\
  Some (a_serial a) = py_int (slice 6 11 l) /\ a_name a = strip (slice 12 16 l) /\
  a_resname a = strip (slice 17 20 l) /\ a_chain a = strip (slice 21 22 l) /\
  Some (a_resseq a) = py_int (slice 22 26 l) /\ a_icode a = strip (slice 26 27 l) /\
  a_x a = strip (slice 30 38 l) /\ a_y a = strip (slice 38 46 l) /\
  a_z a = strip (slice 46 k l).
Proof. exact cut_inside_z. Qed.

(* a HETATM line of 17..26 characters raises; an ATOM line of at most 26 and a
   HETATM line of at most 16 go to the fallback or raise (C07_coordinate_line_cases) *)
Theorem C07_cut_hetatm_short : forall (fok : string -> bool) (src l : string),
  16 < String.length l -> String.length l <= 26 -> parse_cols fok true src l = PVal.
Proof. exact cut_hetatm_short. Qed.

(* non-vacuity of guard2 on a file that fails G1: leading blanks and a tab, a line read
   through the fallback, a line cut inside z, a lower-case record name, " END";
   and a file that fails loudly *)
Example C07_nonvacuous_all_lines :
  (guard2 py_float_ok wtab ex2 = true /\
   forallb (g_line py_float_ok) ex2 = false /\
   existsb (raises py_float_ok) ex2 = false /\
   serials_of (ingest py_float_ok wtab false ex2) = [1; 2; 5; 3]%Z /\
   List.length (cols_read2 py_float_ok ex2) = 4 /\
   map (spec_line py_float_ok) (cols_read2 py_float_ok ex2) =
     [ Some "ATOM      1  N   ALA A   1      11.000  12.000  13.000  1.00  0.00           N";
       Some "ATOM      2  CA  ALA A   1      12.000  12.000  13.000";
       Some "ATOM      3 1 2 3 4 5   3          1       2       3     4     5";
       Some "ATOM      5  N   GLY A   2      15.000  12.000  13.5" ]) /\
  (guard2 py_float_ok wtab ex2_loud = true /\ existsb (raises py_float_ok) ex2_loud = true /\
   ingest py_float_ok wtab false ex2_loud = Raised "ValueError").
Proof. exact (conj ex2_guard ex2_loud_raises). Qed.

Print Assumptions C07_ingest_complete.
Print Assumptions C07_atom_fields.
Print Assumptions C07_blank_lines_irrelevant.
Print Assumptions C07_unknown_lines_irrelevant.
Print Assumptions C07_crlf_and_trailing.
Print Assumptions C07_trailing_columns.
Print Assumptions C07_later_models_ignored.
Print Assumptions C07_drop_water_iff.
Print Assumptions C07_regressions.
Print Assumptions C07_blank_chain_segments_refuted.
Print Assumptions C07_alias_names_refuted.
Print Assumptions C07_nonvacuous.
Print Assumptions C07_loud_or_complete.
Print Assumptions C07_atom_fields_all_lines.
Print Assumptions C07_coordinate_line_cases.
Print Assumptions C07_read_total.
Print Assumptions C07_later_models_ignored_all_lines.
Print Assumptions C07_drop_water_iff_all_lines.
Print Assumptions C07_other_records_exact.
Print Assumptions C07_other_records_irrelevant.
Print Assumptions C07_all_lines_regressions.
Print Assumptions C07_cut_before_z.
Print Assumptions C07_cut_inside_z.
Print Assumptions C07_cut_hetatm_short.
Print Assumptions C07_nonvacuous_all_lines.
Print Assumptions C07_line_endings_irrelevant.
Print Assumptions C07_line_endings_nonvacuous.
Print Assumptions C07_bom_irrelevant.
Print Assumptions C07_bom_regression.
Print Assumptions C07_line_endings_side_condition.
Print Assumptions C07_drop_water_complete.
Print Assumptions C07_drop_water_by_residue_name.
Print Assumptions C07_drop_water_shared_serials.
