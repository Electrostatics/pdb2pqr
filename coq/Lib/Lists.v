(* Facts about the standard list functions that several areas need and the
   List library of Coq 8.16 does not have. *)
From Coq Require Import List Bool Arith Lia.
From Coq Require FinFun.
Import ListNotations.

Lemma forallb_In : forall (A : Type) (f : A -> bool) (l : list A) (x : A),
  forallb f l = true -> In x l -> f x = true.
Proof. intros A f l x H Hin. rewrite forallb_forall in H. apply H. exact Hin. Qed.

Lemma forallb_ext_in : forall (A : Type) (f g : A -> bool) (l : list A),
  (forall x, In x l -> f x = g x) -> forallb f l = forallb g l.
Proof.
  intros A f g l. induction l as [|x l IH]; intros H; [reflexivity|].
  cbn [forallb]. rewrite (H x (or_introl eq_refl)), IH; [reflexivity|].
  intros y Hy. apply H. right. exact Hy.
Qed.

Lemma existsb_ext_in {A} (f g : A -> bool) l :
  (forall x, In x l -> f x = g x) -> existsb f l = existsb g l.
Proof.
  induction l as [|x l IH]; intros H; simpl; [reflexivity|].
  rewrite (H x (or_introl eq_refl)), IH; [reflexivity|]. intros y Hy. apply H. right; exact Hy.
Qed.

Lemma existsb_ext : forall (A : Type) (f g : A -> bool) (l : list A),
  (forall x, f x = g x) -> existsb f l = existsb g l.
Proof. intros A f g l H. apply existsb_ext_in. intros x _. apply H. Qed.

Lemma forallb_imp {A} (f g : A -> bool) l :
  (forall x, f x = true -> g x = true) -> forallb f l = true -> forallb g l = true.
Proof. intro H. rewrite !forallb_forall. intros Hf x Hx. apply H, Hf, Hx. Qed.

Lemma forallb_andb {A} (f g : A -> bool) l :
  forallb (fun x => f x && g x) l = forallb f l && forallb g l.
Proof.
  induction l as [|a l IH]; [reflexivity|]. cbn [forallb]. rewrite IH.
  destruct (f a), (g a), (forallb f l); reflexivity.
Qed.

Lemma filter_sub {A} (f : A -> bool) (l : list A) x : In x (filter f l) -> In x l.
Proof. intro H. apply filter_In in H. apply H. Qed.

Lemma forallb_sub {A} (f : A -> bool) l l' :
  (forall x, In x l' -> In x l) -> forallb f l = true -> forallb f l' = true.
Proof. rewrite !forallb_forall. intros H1 H2 x Hx. apply H2, H1, Hx. Qed.

Lemma existsb_sub {A} (f : A -> bool) l l' :
  (forall x, In x l' -> In x l) -> existsb f l = false -> existsb f l' = false.
Proof.
  intros H1 H2. destruct (existsb f l') eqn:E; [|reflexivity].
  apply existsb_exists in E as [x [Hx Fx]].
  assert (X : existsb f l = true) by (apply existsb_exists; exists x; auto).
  rewrite X in H2. discriminate.
Qed.

Lemma forallb_negb {A} (p : A -> bool) l :
  forallb (fun x => negb (p x)) l = true -> forall x, In x l -> p x = false.
Proof. intros H x Hx. rewrite forallb_forall in H. apply negb_true_iff, H, Hx. Qed.

Lemma forallb_false_exists {A} (f : A -> bool) (l : list A) :
  forallb f l = false -> exists x, In x l /\ f x = false.
Proof.
  induction l as [|a l IH]; cbn [forallb]; intro H; [discriminate|].
  destruct (f a) eqn:E.
  - destruct (IH H) as [x [Hi Hx]]. exists x. split; [right; exact Hi | exact Hx].
  - exists a. split; [left; reflexivity | exact E].
Qed.

Lemma existsb_eqb_In {A} (eqb : A -> A -> bool) :
  (forall a b, eqb a b = true <-> a = b) ->
  forall a l, existsb (eqb a) l = true <-> In a l.
Proof.
  intros E a l. rewrite existsb_exists. split.
  - intros [x [Hx He]]. apply E in He. subst x. exact Hx.
  - intros H. exists a. split; [exact H | now apply E].
Qed.

Lemma filter_all {X : Type} (f : X -> bool) (l : list X) :
  (forall a, In a l -> f a = true) -> filter f l = l.
Proof.
  induction l as [|x t IH]; intros H; [reflexivity|]. cbn [filter].
  rewrite (H x (or_introl eq_refl)). f_equal. apply IH. intros a Ha. apply H. right. exact Ha.
Qed.

Lemma filter_none {X : Type} (f : X -> bool) (l : list X) :
  (forall a, In a l -> f a = false) -> filter f l = [].
Proof.
  induction l as [|x t IH]; intros H; [reflexivity|]. cbn [filter].
  rewrite (H x (or_introl eq_refl)). apply IH. intros a Ha. apply H. right. exact Ha.
Qed.

Lemma filter_length_le {X : Type} (p q : X -> bool) (l : list X) :
  (forall x, p x = true -> q x = true) -> length (filter p l) <= length (filter q l).
Proof.
  intros H. induction l as [|x t IH]; [apply le_n|]. cbn [filter].
  destruct (p x) eqn:E.
  - rewrite (H x E). cbn [length]. apply le_n_S, IH.
  - destruct (q x); [apply le_S|]; exact IH.
Qed.

Lemma filter_filter_sub : forall (A : Type) (p q : A -> bool) (l : list A),
  (forall x, p x = true -> q x = true) -> filter p (filter q l) = filter p l.
Proof.
  intros A p q l H. induction l as [|x l IH]; [reflexivity|]. cbn [filter].
  destruct (q x) eqn:Eq; cbn [filter]; rewrite IH; [reflexivity|].
  destruct (p x) eqn:Ep; [|reflexivity]. rewrite (H x Ep) in Eq. discriminate.
Qed.

Lemma filter_nil_forallb (A B : Type) (f : A -> B) (p : A -> bool) (l : list A) :
  map f (filter p l) = [] <-> forallb (fun x => negb (p x)) l = true.
Proof.
  induction l as [|a l IH]; simpl; [tauto|].
  destruct (p a); simpl; [split; intros H; discriminate | exact IH].
Qed.

Lemma filter_map_length {X Y} (p : Y -> bool) (g : X -> Y) l :
  length (filter p (map g l)) = length (filter (fun x => p (g x)) l).
Proof.
  induction l as [|x l IH]; cbn [map filter]; [reflexivity|].
  destruct (p (g x)); cbn [length]; now rewrite IH.
Qed.

Lemma find_app {X : Type} (f : X -> bool) (l1 l2 : list X) :
  find f (l1 ++ l2) = match find f l1 with Some x => Some x | None => find f l2 end.
Proof.
  induction l1 as [|x t IH]; [reflexivity|]. cbn [app find].
  destruct (f x); [reflexivity | exact IH].
Qed.

Lemma in_elt_iff : forall (A : Type) (x a : A) l1 l2,
  In x (l1 ++ a :: l2) <-> a = x \/ In x (l1 ++ l2).
Proof. intros. rewrite !in_app_iff. cbn. tauto. Qed.

Lemma in_snoc {A} (l : list A) (x p : A) : In p (l ++ [x]) <-> In p l \/ p = x.
Proof. rewrite in_app_iff. cbn [In]. intuition. Qed.

Lemma NoDup_app_intro : forall (A : Type) (a b : list A),
  NoDup a -> NoDup b -> (forall x, In x a -> ~ In x b) -> NoDup (a ++ b).
Proof.
  induction a as [|z a IH]; cbn; intros b Ha Hb Hd; auto.
  inversion Ha; subst. constructor.
  - intros Hc. apply in_app_or in Hc. destruct Hc; [contradiction|]. apply (Hd z); auto.
  - apply IH; auto.
Qed.

Lemma NoDup_app_last : forall (A : Type) (l : list A) x, NoDup l -> ~ In x l -> NoDup (l ++ [x]).
Proof.
  intros A l x Hn Hx. apply NoDup_app_intro; auto.
  - constructor; [intros []|constructor].
  - intros y Hy [<-|[]]. contradiction.
Qed.

Lemma NoDup_app_In {X} (l1 l2 : list X) x : NoDup (l1 ++ l2) -> In x l1 -> In x l2 -> False.
Proof.
  induction l1 as [|y l1 IH]; cbn [app In]; intros Hnd H1 H2; [contradiction|].
  inversion Hnd as [|z l Hni Hnd']; subst.
  destruct H1 as [Heq|H1]; [|exact (IH Hnd' H1 H2)].
  subst y. apply Hni, in_or_app. now right.
Qed.

Lemma NoDup_map_inj {A B} (f : A -> B) l :
  (forall x y, f x = f y -> x = y) -> NoDup l -> NoDup (map f l).
Proof. apply FinFun.Injective_map_NoDup. Qed.

Lemma NoDup_flat_map {A B} (f : A -> list B) (l : list A) :
  NoDup l -> (forall x, In x l -> NoDup (f x)) ->
  (forall x y b, In x l -> In y l -> In b (f x) -> In b (f y) -> x = y) ->
  NoDup (flat_map f l).
Proof.
  induction 1 as [|x r Hx Hr IH]; intros Hf Hdis; simpl; [constructor|].
  apply NoDup_app_intro.
  - apply Hf. left; reflexivity.
  - apply IH; [intros; apply Hf; right; assumption|].
    intros; eapply Hdis; eauto; right; assumption.
  - intros b Hb1 Hb2. apply in_flat_map in Hb2 as [y [Hy Hb2]].
    assert (x = y) by (eapply Hdis; eauto; [left; reflexivity | right; assumption]).
    subst y. contradiction.
Qed.

Lemma nodup_all_equal_short {A} (l : list A) :
  NoDup l -> (forall y z, In y l -> In z l -> y = z) -> length l <= 1.
Proof.
  intros Hn Heq. destruct l as [|a [|b t]]; cbn [length]; try lia.
  exfalso. inversion Hn as [|? ? Ha _]; subst. apply Ha.
  rewrite (Heq a b); [left; reflexivity|left; reflexivity|right; left; reflexivity].
Qed.

Lemma Forall_tl {A} (P : A -> Prop) l : Forall P l -> Forall P (tl l).
Proof. intro H. destruct H; [constructor | assumption]. Qed.

Lemma map_tl {A B} (f : A -> B) l : map f (tl l) = tl (map f l).
Proof. destruct l; reflexivity. Qed.

Lemma Forall2_impl_in {A B} (R R' : A -> B -> Prop) xs ys :
  (forall x y, In y ys -> R x y -> R' x y) -> Forall2 R xs ys -> Forall2 R' xs ys.
Proof.
  intros H F. induction F as [|x y xs ys Rxy _ IH]; constructor.
  - apply H; [left; reflexivity | exact Rxy].
  - apply IH. intros x' y' Hy. apply H. right; exact Hy.
Qed.

Lemma Forall2_in_l {A B} (R : A -> B -> Prop) xs ys x :
  Forall2 R xs ys -> In x xs -> exists y, In y ys /\ R x y.
Proof.
  induction 1 as [|x' y xs ys Rxy _ IH]; [intros [] | intros [E|Hx]].
  - subst x'. exists y. split; [left; reflexivity | exact Rxy].
  - destruct (IH Hx) as [y' [Iy Ry]]. exists y'. split; [right; exact Iy | exact Ry].
Qed.

Lemma Forall2_map_eq {A B C} (R : A -> B -> Prop) (f : A -> C) (g : B -> C) :
  (forall a b, R a b -> f a = g b) -> forall la lb, Forall2 R la lb -> map f la = map g lb.
Proof.
  intros H. induction 1 as [|a b la lb Hab _ IH]; [reflexivity|].
  cbn [map]. rewrite (H a b Hab), IH. reflexivity.
Qed.

Lemma map_eq_Forall2 {A B} (f : A -> B) : forall a b,
  map f a = map f b -> Forall2 (fun x y => f x = f y) a b.
Proof.
  induction a as [|x a IH]; destruct b as [|y b]; cbn [map]; intro H; try discriminate; constructor.
  - injection H as H _. exact H.
  - apply IH. injection H as _ H. exact H.
Qed.

Lemma map_eq_Forall {A B} (f : A -> B) (P : B -> Prop) a b :
  map f a = map f b -> Forall (fun r => P (f r)) a -> Forall (fun r => P (f r)) b.
Proof.
  intro H. apply map_eq_Forall2 in H. induction H as [|x y a b E _ IH]; intro Ha; [constructor|].
  inversion Ha; subst. constructor; [rewrite <- E; assumption | auto].
Qed.

Lemma flat_map_map_in {X Y Z} (f : Y -> list Z) (g : X -> Y) (h : X -> list Z) (s : Z -> Z) l :
  (forall x, In x l -> f (g x) = map s (h x)) -> flat_map f (map g l) = map s (flat_map h l).
Proof.
  induction l as [|x l IH]; cbn [map flat_map]; intros H; [reflexivity|].
  rewrite map_app, (H x (or_introl eq_refl)), IH; [reflexivity|]. intros; apply H; now right.
Qed.

Lemma fold_left_ind {X Y : Type} (Q : X -> Prop) (f : X -> Y -> X) (l : list Y) :
  (forall a y, Q a -> Q (f a y)) -> forall a, Q a -> Q (fold_left f l a).
Proof. intros H. induction l as [|y t IH]; intros a Ha; [exact Ha | apply IH, H, Ha]. Qed.

Lemma fold_left_map {X Y Z} (f : Z -> Y -> Z) (g : X -> Y) l z :
  fold_left f (map g l) z = fold_left (fun a x => f a (g x)) l z.
Proof. revert z. induction l as [|x l IH]; intros z; cbn; [reflexivity | apply IH]. Qed.

Lemma fold_left_ext_in {X Z} (f g : Z -> X -> Z) l z :
  (forall a x, In x l -> f a x = g a x) -> fold_left f l z = fold_left g l z.
Proof.
  revert z. induction l as [|x l IH]; intros z H; cbn; [reflexivity|].
  rewrite (H z x (or_introl eq_refl)). apply IH. intros; apply H; now right.
Qed.

Lemma map_nth_seq {X} (l : list X) d : map (fun i => nth i l d) (seq 0 (length l)) = l.
Proof.
  induction l as [|x l IH]; [reflexivity|].
  cbn [length seq map nth]. f_equal. rewrite <- seq_shift, map_map. exact IH.
Qed.

Lemma nth_map_seq {X} (f : nat -> X) n i d : i < n -> nth i (map f (seq 0 n)) d = f i.
Proof.
  intros H. rewrite (nth_indep _ d (f 0)) by (rewrite map_length, seq_length; exact H).
  rewrite (map_nth f (seq 0 n) 0 i), seq_nth by exact H. reflexivity.
Qed.

Lemma nth_error_map_seq {X} (f : nat -> X) n i :
  i < n -> nth_error (map f (seq 0 n)) i = Some (f i).
Proof.
  intros H. rewrite (nth_error_nth' _ (f 0)) by (rewrite map_length, seq_length; exact H).
  rewrite nth_map_seq by exact H. reflexivity.
Qed.

Lemma nth_of_nth_error {X} (l l' : list X) i j d :
  nth_error l i = nth_error l' j -> nth i l d = nth j l' d.
Proof.
  intros H. destruct (nth_error l i) as [x|] eqn:E.
  - rewrite (nth_error_nth _ _ d E). symmetry. apply nth_error_nth. symmetry. exact H.
  - symmetry in H. apply nth_error_None in E, H. rewrite !nth_overflow by assumption. reflexivity.
Qed.

Lemma map_fst_combine {X Y} (a : list X) (b : list Y) : length a = length b -> map fst (combine a b) = a.
Proof.
  revert b. induction a as [|x a IH]; intros [|y b] H; cbn in *; try reflexivity; try discriminate.
  f_equal. apply IH. now injection H.
Qed.

Lemma map_snd_combine {X Y} (a : list X) (b : list Y) : length a = length b -> map snd (combine a b) = b.
Proof.
  revert b. induction a as [|x a IH]; intros [|y b] H; cbn in *; try reflexivity; try discriminate.
  f_equal. apply IH. now injection H.
Qed.

Lemma combine_map_r : forall (X Y : Type) (h : X -> Y) (l : list X),
  combine l (map h l) = map (fun x => (x, h x)) l.
Proof.
  intros X Y h l. induction l as [| x t IH]; cbn [map combine]; [reflexivity | now rewrite IH].
Qed.

Lemma nth_error_combine {X Y} (a : list X) (b : list Y) k :
  nth_error (combine a b) k =
  match nth_error a k, nth_error b k with Some x, Some y => Some (x, y) | _, _ => None end.
Proof.
  revert b k. induction a as [|x a IH]; intros [|y b] [|k]; cbn [combine nth_error];
    try reflexivity; try (destruct (nth_error a k); reflexivity).
  apply IH.
Qed.

Lemma skipn_add {V} (a b : nat) (l : list V) : skipn (a + b) l = skipn b (skipn a l).
Proof.
  revert l; induction a as [|a IH]; intros l; simpl; [reflexivity|].
  destruct l; [now rewrite skipn_nil | apply IH].
Qed.

Lemma skipn_length_app {T : Type} (l m : list T) : skipn (length l) (l ++ m) = m.
Proof. induction l; cbn; auto. Qed.

(* an index function with a left inverse is injective: n cases instead of n x n *)
Lemma idx_inj {A} (idx : A -> nat) (all : list A) (d : A) :
  (forall a, nth (idx a) all d = a) -> forall a b, Nat.eqb (idx a) (idx b) = true -> a = b.
Proof. intros Hn a b H. apply Nat.eqb_eq in H. rewrite <- (Hn a), H. apply Hn. Qed.

Lemma pair_eqb_iff {A B} (x y : bool) (a a' : A) (b b' : B) :
  (x = true <-> a = a') -> (y = true <-> b = b') -> (x && y = true <-> (a, b) = (a', b')).
Proof.
  intros Hx Hy. rewrite andb_true_iff, Hx, Hy. split; [now intros [-> ->]|now intros [= -> ->]].
Qed.
