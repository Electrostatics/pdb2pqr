(* C01 - assigned charges and radii are exactly the selected force field's
   parameters. Property theorems only; proofs are in Proofs/ForceField.v and
   the generated obligations in Generated/FF_<name>.v. *)
From Coq Require Import ZArith List PArith Permutation Bool.
From PV Require Import Model.ForceField Proofs.ForceField.
From PV Require Generated.FF_AMBER Generated.FF_CHARMM Generated.FF_PARSE
                Generated.FF_PEOEPB Generated.FF_SWANSON Generated.FF_TYL06.
Import ListNotations.

(* For ALL parameter files and ALL .names rule lists (built-in or user): an
   entry of the resulting map IS one data row of the parameter file - charge,
   radius and native names from the same row; nothing defaulted or borrowed. *)
Theorem C01_build_sound : forall (rows : list row) (rules : list rule) (m : ffmap) r a e,
  build rows rules = Some m -> lookup m r a = Some e ->
  exists w, In w rows /\ e = entry_of_row w.
Proof. exact build_sound. Qed.

(* a residue name no rule matches keeps exactly its own rows *)
Theorem C01_build_frame : forall rows rules m k,
  Forall (untouched k) rules -> build rows rules = Some m ->
  dget m k = dget (load_dat rows) k.
Proof. exact build_frame. Qed.

(* apply_force_field, for ALL residue lists: a hit carries exactly
   lookup(ffname, atom name) ... *)
Theorem C01_assign_hit_exact : forall (A : Type) (m : ffmap) (rs : list (@res A)) (x : A) e,
  In (x, e) (fst (assign m rs)) ->
  exists r n, In r rs /\ In (x, n) (snd r) /\ lookup m (fst r) n = Some e.
Proof. exact @assign_hit_exact. Qed.

(* ... an atom is unassigned only when the force field has no entry ... *)
Theorem C01_assign_miss_exact : forall (A : Type) (m : ffmap) (rs : list (@res A)) (x : A),
  In x (snd (assign m rs)) ->
  exists r n, In r rs /\ In (x, n) (snd r) /\ lookup m (fst r) n = None.
Proof. exact @assign_miss_exact. Qed.

(* ... and hits + misses are exactly the atoms: none lost, none duplicated *)
Theorem C01_assign_partition : forall (A : Type) (m : ffmap) (rs : list (@res A)),
  Permutation (map fst (fst (assign m rs)) ++ snd (assign m rs)) (all_atoms rs).
Proof. exact @assign_partition. Qed.

(* what the table comparison gives: every entry of the dump (the map built by forcefield.py,
   see C01_table_eq_<name> below) is the model map's entry for the same key *)
Theorem C01_same_map_lookup : forall m dump n r a e,
  same_map m dump n = true -> In (r, a, e) dump -> lookup m r a = Some e.
Proof. exact same_map_lookup. Qed.

(* generated obligations: for each built-in force field the model, run on the
   DAT and .names file texts, reproduces the map built by forcefield.py *)
Theorem C01_table_eq_AMBER : check_build FF_AMBER.rows FF_AMBER.rules FF_AMBER.dump FF_AMBER.nres = true.
Proof. exact FF_AMBER.table_eq. Qed.
Theorem C01_table_eq_CHARMM : check_build FF_CHARMM.rows FF_CHARMM.rules FF_CHARMM.dump FF_CHARMM.nres = true.
Proof. exact FF_CHARMM.table_eq. Qed.
Theorem C01_table_eq_PARSE : check_build FF_PARSE.rows FF_PARSE.rules FF_PARSE.dump FF_PARSE.nres = true.
Proof. exact FF_PARSE.table_eq. Qed.
Theorem C01_table_eq_PEOEPB : check_build FF_PEOEPB.rows FF_PEOEPB.rules FF_PEOEPB.dump FF_PEOEPB.nres = true.
Proof. exact FF_PEOEPB.table_eq. Qed.
Theorem C01_table_eq_SWANSON : check_build FF_SWANSON.rows FF_SWANSON.rules FF_SWANSON.dump FF_SWANSON.nres = true.
Proof. exact FF_SWANSON.table_eq. Qed.
Theorem C01_table_eq_TYL06 : check_build FF_TYL06.rows FF_TYL06.rules FF_TYL06.dump FF_TYL06.nres = true.
Proof. exact FF_TYL06.table_eq. Qed.

(* non-vacuity: the map the model builds for AMBER contains a rule-produced alias
   (an entry whose key differs from its native row) *)
Example C01_nonvacuous :
  existsb (fun f => let '(r, a, e) := f in negb (Pos.eqb r (e_nres e)) || negb (Pos.eqb a (e_natom e)))
          (flatten FF_AMBER.built) = true.
Proof. vm_compute. reflexivity. Qed.

Print Assumptions C01_build_sound.
Print Assumptions C01_build_frame.
Print Assumptions C01_assign_hit_exact.
Print Assumptions C01_assign_miss_exact.
Print Assumptions C01_assign_partition.
Print Assumptions C01_same_map_lookup.
Print Assumptions C01_table_eq_AMBER.
Print Assumptions C01_table_eq_CHARMM.
Print Assumptions C01_table_eq_PARSE.
Print Assumptions C01_table_eq_PEOEPB.
Print Assumptions C01_table_eq_SWANSON.
Print Assumptions C01_table_eq_TYL06.
Print Assumptions C01_nonvacuous.
