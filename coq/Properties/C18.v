(* C18 - DX to cube conversion preserves the grid data.
   Property theorems only; proofs are in Proofs/DxCube.v. *)
From Coq Require Import String List ZArith.
From PV Require Import Lib.Strings Model.DxCube Proofs.DxCube.
Import ListNotations.

(* every value is written exactly once, in order, whatever n mod 6 is *)
Theorem C18_chunks_concat : forall (V : Type) (vals : list V),
  concat (map fst (chunks V vals)) = vals.
Proof. exact chunks_concat. Qed.

(* full lines hold 6 values and end in a newline; the last holds 1..6 *)
Theorem C18_chunks_shaped : forall (V : Type) (vals : list V),
  vals <> [] -> shaped V (chunks V vals).
Proof. exact chunks_shaped. Qed.

(* read_dx returns the data tokens in file order for any tokens-per-line *)
Theorem C18_read_dx_values : forall (V : Type) (pfloat : string -> V) (pint : string -> Z)
  (lines : list string) (d : dx V),
  read_dx V pfloat pint lines = Some d ->
  dx_values V d = map pfloat (data_tokens lines).
Proof. exact read_dx_values. Qed.

(* the value block of the cube tokenises to exactly the DX values *)
Theorem C18_body_tokens : forall (V : Type) (fmtE : V -> string) (core : V -> string),
  (forall v, tokens (fmtE v) = [core v]) ->
  forall d : dx V,
  tokens (String.concat "" (cube_body V fmtE d)) = map core (dx_values V d).
Proof. exact body_tokens. Qed.

(* signed counts, origin, spacings, one line per atom in order *)
Theorem C18_header_fields : forall (V : Type) (fmtF : V -> string) (fmtI : Z -> string)
  (coreF : V -> string) (coreI : Z -> string),
  (forall v, tokens (fmtF v) = [coreF v]) ->
  (forall n, tokens (fmtI n) = [coreI n]) ->
  forall comment (d : dx V) atoms hdr,
  cube_header V fmtF fmtI comment d atoms = Some hdr ->
  exists ox oy oz nx ny nz s0 s1 s2 rest,
    dx_origin V d = Some (ox, oy, oz) /\ dx_counts V d = Some (nx, ny, nz) /\
    dx_deltas V d = s0 :: s1 :: s2 :: rest /\
    map tokens (skipn 2 hdr) =
      ([coreI (Z.of_nat (length atoms)); coreF ox; coreF oy; coreF oz]
       :: (coreI (- nx)%Z :: map coreF [fst (fst s0); snd (fst s0); snd s0])
       :: (coreI (- ny)%Z :: map coreF [fst (fst s1); snd (fst s1); snd s1])
       :: (coreI (- nz)%Z :: map coreF [fst (fst s2); snd (fst s2); snd s2])
       :: map (atom_fields V coreF coreI) atoms).
Proof. exact header_fields. Qed.

(* io.read_dx followed by io.write_cube: the cube is 6 + natoms header lines, then a value
   block whose tokens are the data tokens of the DX lines, in file order *)
Theorem C18_dx2cube_values : forall (V : Type) (pfloat : string -> V) (pint : string -> Z)
  (fmtE fmtF : V -> string) (fmtI : Z -> string) (core : V -> string),
  (forall v, tokens (fmtE v) = [core v]) ->
  forall lines d comment atoms text,
  read_dx V pfloat pint lines = Some d ->
  write_cube V fmtE fmtF fmtI comment d atoms = Some text ->
  exists hdr,
    cube_header V fmtF fmtI comment d atoms = Some hdr /\
    length hdr = 6 + length atoms /\
    text = (String.concat "" hdr ++ String.concat "" (cube_body V fmtE d))%string /\
    tokens (String.concat "" (cube_body V fmtE d)) = map core (map pfloat (data_tokens lines)).
Proof. exact dx2cube_values. Qed.

(* non-vacuity: a formatter meeting the token hypothesis exists, and a
   7-value grid gives one full line and a last line of one value *)
Example C18_nonvacuous :
  (forall v : bool, tokens ((fun b : bool => if b then " 1.00000E+00 " else "-2.50000E-01 ")%string v)
                    = [(fun b : bool => if b then "1.00000E+00" else "-2.50000E-01")%string v]) /\
  map (fun c => (length (fst c), snd c)) (chunks bool [true; false; true; true; false; false; true])
  = [(6, true); (1, false)].
Proof. split; [intros [|]; reflexivity | reflexivity]. Qed.

Print Assumptions C18_chunks_concat.
Print Assumptions C18_chunks_shaped.
Print Assumptions C18_read_dx_values.
Print Assumptions C18_body_tokens.
Print Assumptions C18_header_fields.
Print Assumptions C18_dx2cube_values.
Print Assumptions C18_nonvacuous.
