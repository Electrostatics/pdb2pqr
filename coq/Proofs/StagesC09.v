(* The C09 proof obligations on the GENERATED stage table
   (Generated/Stages.v, rewritten from pdb2pqr/main.py on every check run).
   A code change such as handing args.keep_chain to a compute stage, or moving
   the --ffout renaming before the parameter lookup, makes a lemma here fail. *)
From Coq Require Import String List Bool Arith.
From PV Require Import Model.Pipeline Proofs.Pipeline Generated.Stages.
Import ListNotations.
Local Open Scope string_scope.

(* no Compute stage reads whitespace / keep_chain / include_header / pdb_output /
   apbs_input / ffout, no other option is derived from them, and no Compute
   stage follows the renaming *)
Lemma generated_c09_obligation : c09_obligation format_opts stages = true.
Proof. vm_compute. reflexivity. Qed.

(* the --ffout renaming comes after the parameter lookup and the charge guard,
   and before the PQR is written *)
Lemma generated_ffout_order :
  all_before "apply_force_field" "apply_name_scheme" stages = true
  /\ all_before "raise_if_charge_err" "apply_name_scheme" stages = true
  /\ all_before "apply_force_field" "raise_if_charge_err" stages = true
  /\ all_before "apply_name_scheme" "print_pqr" stages = true.
Proof. vm_compute. repeat split; reflexivity. Qed.

Lemma generated_ffout_after_params :
  forall i j k da db dc,
    nth_error stages i = Some da -> sd_name da = "apply_force_field" ->
    nth_error stages j = Some db -> sd_name db = "raise_if_charge_err" ->
    nth_error stages k = Some dc -> sd_name dc = "apply_name_scheme" ->
    i < j /\ j < k /\ sd_kind dc = Rename.
Proof.
  intros i j k da db dc Hi Ha Hj Hb Hk Hc.
  destruct generated_ffout_order as [_ [H2 [H3 _]]].
  destruct (all_before_spec _ _ _ H2) as [_ [_ L2]].
  destruct (all_before_spec _ _ _ H3) as [_ [_ L3]].
  split; [eapply L3; eauto|]. split; [eapply L2; eauto|].
  assert (Hall : forallb (fun d => negb (String.eqb (sd_name d) "apply_name_scheme")
                                   || kind_eqb (sd_kind d) Rename) stages = true)
    by (vm_compute; reflexivity).
  rewrite forallb_forall in Hall. apply nth_error_In in Hk. specialize (Hall dc Hk).
  rewrite Hc in Hall. cbn in Hall. now apply kind_eqb_eq in Hall.
Qed.

(* the generic theorem instantiated with the generated table *)
Lemma generated_noninterference :
  forall (value state M P : Type) (model : state -> M) (phys : M -> P)
         (sts : list (stage value state)),
    map desc sts = stages -> Forall (stage_ok model phys) sts ->
    forall (o1 o2 : store value) (s : state) r1 r2,
      agree_outside format_opts o1 o2 ->
      exec sts o1 s = Some r1 -> exec sts o2 s = Some r2 ->
      phys (model (snd r1)) = phys (model (snd r2)).
Proof.
  intros value state M P model phys sts Hd Hok o1 o2 s r1 r2 Ha H1 H2.
  assert (Hob : c09_obligation format_opts (map desc sts) = true)
    by (rewrite Hd; apply generated_c09_obligation).
  destruct (format_noninterference value state M P model phys format_opts sts Hok Hob o1 o2 s Ha)
    as [_ [H _]].
  now apply H.
Qed.
