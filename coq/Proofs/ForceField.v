(* Proofs about the force-field model (C01). *)
From Coq Require Import ZArith List Bool PArith Permutation.
From PV Require Import Lib.Lists Model.ForceField.
Import ListNotations.

Section DictFacts.
  Context {V : Type}.

  Lemma dget_dset (d : list (id * V)) k v k' :
    dget (dset d k v) k' = if Pos.eqb k' k then Some v else dget d k'.
  Proof.
    induction d as [|[k0 v0] r IH]; simpl.
    - destruct (Pos.eqb k' k); reflexivity.
    - destruct (Pos.eqb k k0) eqn:E; simpl.
      + apply Pos.eqb_eq in E. subst k0. destruct (Pos.eqb k' k); reflexivity.
      + rewrite IH. destruct (Pos.eqb k' k0) eqn:E0; [|reflexivity].
        apply Pos.eqb_eq in E0. subst k0.
        destruct (Pos.eqb k' k) eqn:E1; [|reflexivity].
        apply Pos.eqb_eq in E1. subst k'. rewrite Pos.eqb_refl in E. discriminate.
  Qed.

  Lemma dget_In (d : list (id * V)) k v : dget d k = Some v -> In (k, v) d.
  Proof.
    induction d as [|[k0 v0] r IH]; simpl; [discriminate|].
    destruct (Pos.eqb k k0) eqn:E.
    - apply Pos.eqb_eq in E. subst k0. intros [= ->]. left; reflexivity.
    - intros H. right. auto.
  Qed.

  (* values of a dict all satisfy P *)
  Definition AllV (P : V -> Prop) (d : list (id * V)) : Prop := Forall (fun kv => P (snd kv)) d.

  Lemma AllV_dset P d k v : AllV P d -> P v -> AllV P (dset d k v).
  Proof.
    intros H Hv. induction H as [|[k0 v0] r H0 Hr IH]; simpl.
    - repeat constructor. exact Hv.
    - destruct (Pos.eqb k k0); constructor; simpl; auto.
  Qed.

  Lemma AllV_dget P d k v : AllV P d -> dget d k = Some v -> P v.
  Proof.
    intros H Hg. apply dget_In in Hg. unfold AllV in H. rewrite Forall_forall in H.
    exact (H _ Hg).
  Qed.
End DictFacts.

(* Every entry of the built map is a row of the DAT file: [Good] is kept by loading and by every rule. *)
Section Sound.
  Variable rows : list row.

  Definition from_dat (e : entry) : Prop := exists w, In w rows /\ e = entry_of_row w.
  Definition GoodAtoms (a : atoms) : Prop := AllV from_dat a.
  Definition Good (m : ffmap) : Prop := AllV GoodAtoms m.

  Lemma good_nil_atoms : GoodAtoms [].
  Proof. constructor. Qed.

  Lemma good_get m k : Good m -> GoodAtoms (match dget m k with Some a => a | None => [] end).
  Proof.
    intros H. destruct (dget m k) eqn:E; [eapply AllV_dget; eauto | apply good_nil_atoms].
  Qed.

  Lemma good_load_row m w : Good m -> In w rows -> Good (load_row m w).
  Proof.
    intros H Hw. unfold load_row. apply AllV_dset; [exact H|].
    apply AllV_dset; [apply good_get; exact H|]. exists w. auto.
  Qed.

  Lemma good_load l : (forall w, In w l -> In w rows) -> forall m, Good m -> Good (fold_left load_row l m).
  Proof.
    induction l as [|w r IH]; intros Hl m Hm; simpl; [exact Hm|].
    apply IH; [intros; apply Hl; right; assumption|].
    apply good_load_row; [exact Hm | apply Hl; left; reflexivity].
  Qed.

  Lemma good_fold_dset (src tgt : atoms) :
    GoodAtoms src -> GoodAtoms tgt ->
    GoodAtoms (fold_left (fun t p => dset t (fst p) (snd p)) src tgt).
  Proof.
    intros Hs. revert tgt. induction Hs as [|[k e] r He Hr IH]; intros tgt Ht; simpl; [exact Ht|].
    apply IH. apply AllV_dset; assumption.
  Qed.

  Lemma good_copy m t f m' : Good m -> copy_residue m t f = Some m' -> Good m'.
  Proof.
    intros H. unfold copy_residue. destruct (dget m f) as [src|] eqn:E; [|discriminate].
    intros [= <-]. apply AllV_dset; [exact H|].
    apply good_fold_dset; [eapply AllV_dget; eauto | apply good_get; exact H].
  Qed.

  Lemma good_copies g cs : forall m m', Good m -> do_copies g m cs = Some m' -> Good m'.
  Proof.
    induction cs as [|[t f] r IH]; intros m m' H; simpl.
    - intros [= <-]. exact H.
    - destruct (g && negb (dhas m f)); [apply IH; exact H|].
      destruct (copy_residue m t f) as [m1|] eqn:E; [|discriminate].
      apply IH. eapply good_copy; eauto.
  Qed.

  Lemma good_alias_atoms al : forall a, GoodAtoms a -> GoodAtoms (alias_atoms a al).
  Proof.
    unfold alias_atoms. induction al as [|[n o] r IH]; intros a Ha; simpl; [exact Ha|].
    apply IH. destruct o as [old|]; simpl; [|exact Ha].
    destruct (dget a old) as [e|] eqn:E; [|exact Ha].
    apply AllV_dset; [exact Ha | eapply AllV_dget; eauto].
  Qed.

  Lemma good_do_alias m keys al : Good m -> Good (do_alias m keys al).
  Proof.
    intros H. unfold do_alias, Good, AllV in *. rewrite Forall_map.
    eapply Forall_impl; [|exact H]. intros [k a] Ha; simpl in *.
    destruct (mem_id k keys); simpl; [apply good_alias_atoms|]; exact Ha.
  Qed.

  Lemma good_rule m r m' : Good m -> apply_rule m r = Some m' -> Good m'.
  Proof.
    intros H. unfold apply_rule.
    destruct (if r_has_old r then do_copies (r_group r) m (r_copies r) else Some m) as [m1|] eqn:E; [|discriminate].
    assert (H1 : Good m1).
    { destruct (r_has_old r); [eapply good_copies; eauto | injection E as <-; exact H]. }
    destruct (atommap (r_alias r)); intros [= <-]; [exact H1 | apply good_do_alias; exact H1].
  Qed.

  Lemma good_rules rs : forall m m', Good m -> apply_rules m rs = Some m' -> Good m'.
  Proof.
    induction rs as [|r rest IH]; intros m m' H; simpl.
    - intros [= <-]. exact H.
    - destruct (apply_rule m r) as [m1|] eqn:E; [|discriminate].
      apply IH. eapply good_rule; eauto.
  Qed.

  (* no entry is invented, defaulted, or mixes the charge of one row with the
     radius / native names of another: it IS one row of the file *)
  Theorem build_sound rules m r a e :
    build rows rules = Some m -> lookup m r a = Some e ->
    exists w, In w rows /\ e = entry_of_row w.
  Proof.
    unfold build. intros Hb Hl.
    assert (G : Good m).
    { eapply good_rules; [|exact Hb]. apply good_load; [auto | constructor]. }
    unfold lookup in Hl. destruct (dget m r) as [ats|] eqn:E; [|discriminate].
    eapply (AllV_dget from_dat); [|exact Hl]. eapply AllV_dget; eauto.
  Qed.
End Sound.

(* Frame: a residue no rule touches keeps its atoms. *)

Lemma dget_map_keep (m : ffmap) (f : id * atoms -> id * atoms) k :
  (forall kv, fst (f kv) = fst kv) ->
  dget (map f m) k = match dget m k with Some a => Some (snd (f (k, a))) | None => None end.
Proof.
  intros Hf. induction m as [|[k0 a0] r IH]; simpl; [reflexivity|].
  specialize (Hf (k0, a0)) as H0. destruct (f (k0, a0)) as [k1 a1] eqn:E. simpl in H0. subst k1.
  destruct (Pos.eqb k k0) eqn:Ek; [|exact IH].
  apply Pos.eqb_eq in Ek. subst k0. rewrite E. reflexivity.
Qed.

Lemma copies_frame g cs k : forall m m',
  ~ In k (map fst cs) -> do_copies g m cs = Some m' -> dget m' k = dget m k.
Proof.
  induction cs as [|[t f] r IH]; intros m m' Hk; simpl.
  - intros [= <-]. reflexivity.
  - simpl in Hk. destruct (g && negb (dhas m f)); [apply IH; tauto|].
    unfold copy_residue. destruct (dget m f) as [src|]; [|discriminate].
    intros H. rewrite (IH _ _ ltac:(tauto) H). rewrite dget_dset.
    destruct (Pos.eqb k t) eqn:E; [apply Pos.eqb_eq in E; subst; tauto | reflexivity].
Qed.

Lemma mem_id_false k l : ~ In k l -> mem_id k l = false.
Proof.
  intros H. apply not_true_is_false. intros E. apply H.
  exact (proj1 (existsb_eqb_In Pos.eqb Pos.eqb_eq k l) E).
Qed.

Definition untouched (k : id) (r : rule) : Prop :=
  ~ In k (map fst (r_copies r)) /\ ~ In k (r_keys r).

Lemma rule_frame m r m' k : untouched k r -> apply_rule m r = Some m' -> dget m' k = dget m k.
Proof.
  intros [H1 H2]. unfold apply_rule.
  destruct (if r_has_old r then do_copies (r_group r) m (r_copies r) else Some m) as [m1|] eqn:E; [|discriminate].
  assert (F1 : dget m1 k = dget m k).
  { destruct (r_has_old r); [eapply copies_frame; eauto | injection E as <-; reflexivity]. }
  destruct (atommap (r_alias r)) as [|p l]; intros [= <-]; [exact F1|].
  unfold do_alias. rewrite dget_map_keep.
  - rewrite F1. destruct (dget m k); [|reflexivity]. simpl. rewrite (mem_id_false _ _ H2). reflexivity.
  - intros [k0 a0]; simpl. destruct (mem_id k0 (r_keys r)); reflexivity.
Qed.

Theorem build_frame rows rules m k :
  Forall (untouched k) rules -> build rows rules = Some m ->
  dget m k = dget (load_dat rows) k.
Proof.
  unfold build. generalize (load_dat rows) as m0. intros m0 H. revert m0.
  induction H as [|r rest Hr Hrest IH]; intros m0; simpl.
  - intros [= <-]. reflexivity.
  - destruct (apply_rule m0 r) as [m1|] eqn:E; [|discriminate].
    intros Hb. rewrite (IH _ Hb). eapply rule_frame; eauto.
Qed.

(* Assignment: hits carry exactly the looked-up entry, misses have none, and nothing is lost
   or duplicated. *)
Section AssignFacts.
  Context {A : Type}.
  Variable m : ffmap.

  Definition all_atoms (rs : list (@res A)) : list A := flat_map (fun r => map fst (snd r)) rs.

  Lemma assign_res_perm (r : @res A) :
    Permutation (map fst (fst (assign_res m r)) ++ snd (assign_res m r)) (map fst (snd r)).
  Proof.
    unfold assign_res. destruct r as [rn ats]. cbn [fst snd].
    induction ats as [|[x n] rest IH]; cbn [fold_right map fst snd]; [constructor|].
    destruct (lookup m rn n); cbn [fst snd map].
    - constructor. exact IH.
    - eapply Permutation_trans; [apply Permutation_sym, Permutation_middle|]. constructor. exact IH.
  Qed.

  Lemma assign_cons (r : @res A) rest :
    assign m (r :: rest) =
    (fst (assign_res m r) ++ fst (assign m rest), snd (assign_res m r) ++ snd (assign m rest)).
  Proof. reflexivity. Qed.

  Theorem assign_partition (rs : list (@res A)) :
    Permutation (map fst (fst (assign m rs)) ++ snd (assign m rs)) (all_atoms rs).
  Proof.
    induction rs as [|r rest IH]; [constructor|].
    rewrite assign_cons. cbn [fst snd all_atoms flat_map]. rewrite map_app.
    apply Permutation_trans with
      ((map fst (fst (assign_res m r)) ++ snd (assign_res m r)) ++
       (map fst (fst (assign m rest)) ++ snd (assign m rest))).
    - rewrite <- !app_assoc. apply Permutation_app_head.
      rewrite !app_assoc. apply Permutation_app_tail. apply Permutation_app_comm.
    - apply Permutation_app; [apply assign_res_perm | exact IH].
  Qed.

  (* an atom is filed under the result of its lookup: with the entry among the hits, or among
     the misses *)
  Definition filed (x : A) (o : option entry) (hm : list (A * entry) * list A) : Prop :=
    match o with Some e => In (x, e) (fst hm) | None => In x (snd hm) end.

  Lemma assign_res_filed (r : @res A) (x : A) (o : option entry) :
    filed x o (assign_res m r) -> exists n, In (x, n) (snd r) /\ lookup m (fst r) n = o.
  Proof.
    unfold filed, assign_res. destruct r as [rn ats]. cbn [fst snd].
    induction ats as [|[y n] rest IH]; cbn [fold_right fst snd]; [destruct o; intros []|].
    assert (T : (exists n', In (x, n') rest /\ lookup m rn n' = o) ->
                exists n', In (x, n') ((y, n) :: rest) /\ lookup m rn n' = o).
    { intros [n' [H1 H2]]. exists n'. split; [right; exact H1 | exact H2]. }
    destruct (lookup m rn n) as [e0|] eqn:E, o as [e|]; cbn [fst snd]; intro H.
    - destruct H as [[= -> ->] | H]; [exists n; split; [left; reflexivity | exact E] | exact (T (IH H))].
    - exact (T (IH H)).
    - exact (T (IH H)).
    - destruct H as [-> | H]; [exists n; split; [left; reflexivity | exact E] | exact (T (IH H))].
  Qed.

  Lemma assign_flat (rs : list (@res A)) :
    assign m rs = (flat_map (fun r => fst (assign_res m r)) rs, flat_map (fun r => snd (assign_res m r)) rs).
  Proof. induction rs as [|r rest IH]; [reflexivity|]. rewrite assign_cons, IH. reflexivity. Qed.

  Lemma assign_filed (rs : list (@res A)) (x : A) (o : option entry) :
    filed x o (assign m rs) -> exists r n, In r rs /\ In (x, n) (snd r) /\ lookup m (fst r) n = o.
  Proof.
    rewrite assign_flat. intro H.
    assert (R : exists r, In r rs /\ filed x o (assign_res m r))
      by (destruct o; apply in_flat_map in H; exact H).
    destruct R as [r [Hr Hx]]. destruct (assign_res_filed r x o Hx) as [n Hn].
    exists r, n. split; [exact Hr | exact Hn].
  Qed.

  (* every atom that gets parameters gets exactly lookup(ffname, atom name) *)
  Theorem assign_hit_exact (rs : list (@res A)) (x : A) e :
    In (x, e) (fst (assign m rs)) ->
    exists r n, In r rs /\ In (x, n) (snd r) /\ lookup m (fst r) n = Some e.
  Proof. exact (assign_filed rs x (Some e)). Qed.

  (* an atom is reported unassigned only if the force field has no entry *)
  Theorem assign_miss_exact (rs : list (@res A)) (x : A) :
    In x (snd (assign m rs)) ->
    exists r n, In r rs /\ In (x, n) (snd r) /\ lookup m (fst r) n = None.
  Proof. exact (assign_filed rs x None). Qed.
End AssignFacts.

(* The table check is sound in the direction dump -> model: when same_map holds, every dumped
   entry is what the model map returns for its key. *)

Lemma entry_eqb_eq a b : entry_eqb a b = true -> a = b.
Proof.
  destruct a, b. unfold entry_eqb; simpl. rewrite !andb_true_iff.
  intros [[[H1 H2] H3] H4]. apply Z.eqb_eq in H1, H2. apply Pos.eqb_eq in H3, H4. congruence.
Qed.

Theorem same_map_lookup m dump n r a e :
  same_map m dump n = true -> In (r, a, e) dump -> lookup m r a = Some e.
Proof.
  unfold same_map. rewrite !andb_true_iff. intros [[H _] _] Hin.
  rewrite forallb_forall in H. specialize (H _ Hin). unfold flat_in in H.
  destruct (lookup m r a) as [e'|]; [|discriminate]. apply entry_eqb_eq in H. congruence.
Qed.
