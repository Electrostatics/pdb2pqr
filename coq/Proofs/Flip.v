(* Proofs about the flip model (C04): all-or-nothing, and rigidity of both outcomes for any
   distance-preserving motion that fixes the two axis atoms.  The instance over R (rotation by
   180 degrees, which is an involution) is in Proofs/FlipR.v. *)
From Coq Require Import List PArith ZArith Bool Arith Lia.
From PV Require Import Lib.Lists Model.ForceField Model.Topology Model.Moves Model.Quatfit Model.Flip.
From PV Require Import Proofs.Moves.
Import ListNotations.

Section Atoms.
  Context {P : Type}.
  Implicit Types (l : list (fatom P)) (a : fatom P) (n : id).

  Definition plain l : Prop := forall a, In a l -> fa_flip a = false.

  Lemma has_atom_app l1 l2 n fl : has_atom (l1 ++ l2) n fl = has_atom l1 n fl || has_atom l2 n fl.
  Proof. unfold has_atom. apply existsb_app. Qed.

  Lemma has_plain_true l n : plain l -> has_atom l n true = false.
  Proof.
    intros H. unfold has_atom. apply not_true_is_false. intros E. apply existsb_exists in E.
    destruct E as [a [Ha E]]. rewrite (H a Ha) in E. rewrite andb_false_r in E. discriminate.
  Qed.

  Lemma can_fix_plain Mc l : plain l -> can_fix Mc true l = false.
  Proof.
    intros H. unfold can_fix. apply not_true_is_false. intros E. apply existsb_exists in E.
    destruct E as [a [Ha E]]. rewrite (H a Ha) in E. discriminate.
  Qed.

  Lemma unflag_plain a : fa_flip a = false -> unflag a = a.
  Proof. destruct a as [n f p]. cbn. intros ->. reflexivity. Qed.

  Lemma unflag_if a : (if fa_flip a then unflag a else a) = unflag a.
  Proof. destruct (fa_flip a) eqn:E; [reflexivity | symmetry; apply unflag_plain, E]. Qed.

  Lemma map_unflag_plain l : plain l -> map unflag l = l.
  Proof. intros H. rewrite <- (map_id l) at 2. apply map_ext_in. intros a Ha. apply unflag_plain, H, Ha. Qed.

  Lemma unflagged_plain l : plain (map unflag l).
  Proof. intros a Ha. apply in_map_iff in Ha. destruct Ha as [b [<- _]]. reflexivity. Qed.

  Lemma coords_app l1 l2 n :
    coords_of (l1 ++ l2) n = match coords_of l1 n with Some p => Some p | None => coords_of l2 n end.
  Proof. unfold coords_of. rewrite find_app. destruct (find _ l1); reflexivity. Qed.

  Lemma coords_filter (q : id -> bool) l n :
    coords_of (filter (fun a => q (fa_name a)) l) n = if q n then coords_of l n else None.
  Proof.
    unfold coords_of. induction l as [|x t IH]; [destruct (q n); reflexivity|]. cbn [filter find].
    destruct (Pos.eqb (fa_name x) n && negb (fa_flip x)) eqn:S.
    - apply andb_true_iff in S. destruct S as [S1 S2]. apply Pos.eqb_eq in S1. subst n.
      destruct (q (fa_name x)); [cbn [find]; rewrite Pos.eqb_refl, S2; reflexivity | exact IH].
    - destruct (q (fa_name x)); [cbn [find]; rewrite S|]; exact IH.
  Qed.
End Atoms.

Section AllOrNothing.
  Context {P : Type}.
  Variable Rt : P -> P.
  Variables M Mc : list id.
  Variable atoms0 : list (fatom P).
  Hypothesis plain0 : plain atoms0.
  (* every rotated atom gets a copy *)
  Hypothesis copied : forall n, mem n M = true -> coords_of atoms0 n <> None -> mem n Mc = true.

  (* Flip.__init__ leaves [S0]: the rotated originals [R0] followed by the [copies] *)
  Definition rotA (a : fatom P) : fatom P :=
    if negb (fa_flip a) && mem (fa_name a) M then mkfatom (fa_name a) false (Rt (fa_pos a)) else a.
  Definition R0 : list (fatom P) := map rotA atoms0.
  Definition copies_of (l : list id) : list (fatom P) :=
    flat_map (fun n => match coords_of atoms0 n with Some p => [mkfatom n true p] | None => [] end) l.
  Definition copies : list (fatom P) := copies_of Mc.
  Definition S0 : list (fatom P) := (R0 ++ copies)%list.
  (* fix_flip with a *FLIP atom drops the originals that have a copy ([inC]) and leaves [Sc];
     renaming the copies gives [So] *)
  Definition inC (n : id) : bool := has_atom copies n true.
  Definition Sc : list (fatom P) := (filter (fun a => negb (inC (fa_name a))) R0 ++ copies)%list.
  Definition So : list (fatom P) := map unflag Sc.

  Lemma S0_eq : flip_init Rt M Mc atoms0 = S0.
  Proof. reflexivity. Qed.

  Lemma rotA_name a : fa_name (rotA a) = fa_name a.
  Proof. unfold rotA. destruct (negb (fa_flip a) && mem (fa_name a) M); reflexivity. Qed.

  Lemma rotA_flip a : fa_flip (rotA a) = fa_flip a.
  Proof. unfold rotA. destruct (fa_flip a) eqn:E; [exact E|]. destruct (mem (fa_name a) M); [reflexivity | exact E]. Qed.

  Lemma R0_plain : plain R0.
  Proof. intros a H. apply in_map_iff in H. destruct H as [b [<- Hb]]. rewrite rotA_flip. apply plain0, Hb. Qed.

  Lemma copies_flip a : In a copies -> fa_flip a = true.
  Proof.
    intros H. apply in_flat_map in H. destruct H as [n [_ Hn]].
    destruct (coords_of atoms0 n); [|destruct Hn]. destruct Hn as [<- | []]. reflexivity.
  Qed.

  Lemma fix_false_S0 : fix_flip false S0 = R0.
  Proof.
    unfold fix_flip, S0. rewrite filter_app. rewrite (filter_all _ R0), (filter_none _ copies).
    - apply app_nil_r.
    - intros a Ha. rewrite (copies_flip a Ha). reflexivity.
    - intros a Ha. rewrite (R0_plain a Ha). reflexivity.
  Qed.

  Lemma fix_true_S0 : fix_flip true S0 = Sc.
  Proof.
    unfold fix_flip, Sc, S0. rewrite filter_app. f_equal.
    - apply filter_ext_in. intros a Ha. rewrite (R0_plain a Ha). cbn [orb].
      rewrite has_atom_app, (has_plain_true R0 _ R0_plain). reflexivity.
    - apply filter_all. intros a Ha. rewrite (copies_flip a Ha). reflexivity.
  Qed.

  Lemma fix_true_Sc : fix_flip true Sc = Sc.
  Proof.
    unfold fix_flip. apply filter_all. intros a Ha.
    replace (has_atom Sc (fa_name a) true) with (inC (fa_name a)).
    - apply in_app_or in Ha. destruct Ha as [Ha | Ha].
      + apply filter_In in Ha. destruct Ha as [_ Ha]. rewrite Ha. apply orb_true_r.
      + rewrite (copies_flip a Ha). reflexivity.
    - unfold Sc. rewrite has_atom_app, has_plain_true; [reflexivity|].
      intros b Hb. apply filter_In in Hb. apply R0_plain, Hb.
  Qed.

  Lemma has_copies_of l n :
    has_atom (copies_of l) n true = mem n l && (match coords_of atoms0 n with Some _ => true | None => false end).
  Proof.
    unfold has_atom. induction l as [|m t IH]; [reflexivity|].
    cbn [copies_of flat_map]. fold (copies_of t). rewrite existsb_app, IH. cbn [mem existsb]. fold (mem n t).
    destruct (Pos.eqb n m) eqn:E.
    - apply Pos.eqb_eq in E. subst m. destruct (coords_of atoms0 n) as [p|].
      + cbn [existsb fa_name fa_flip]. rewrite Pos.eqb_refl. reflexivity.
      + cbn [existsb orb]. rewrite !andb_false_r. reflexivity.
    - cbn [orb]. destruct (coords_of atoms0 m) as [p|]; cbn [existsb fa_name fa_flip orb]; [|reflexivity].
      rewrite Pos.eqb_sym, E. reflexivity.
  Qed.

  Lemma inC_spec n : inC n = mem n Mc && (match coords_of atoms0 n with Some _ => true | None => false end).
  Proof. apply has_copies_of. Qed.

  Lemma coords_copies_of l n :
    coords_of (map unflag (copies_of l)) n = if mem n l then coords_of atoms0 n else None.
  Proof.
    induction l as [|m t IH]; [reflexivity|].
    cbn [copies_of flat_map]. fold (copies_of t). rewrite map_app, coords_app, IH.
    cbn [mem existsb]. fold (mem n t).
    destruct (coords_of atoms0 m) as [p|] eqn:Em; unfold coords_of at 1;
      cbn [map find unflag fa_name fa_flip fa_pos negb].
    - rewrite andb_true_r, (Pos.eqb_sym m n). destruct (Pos.eqb n m) eqn:E; cbn [orb]; [|reflexivity].
      apply Pos.eqb_eq in E. subst m. rewrite Em. reflexivity.
    - destruct (Pos.eqb n m) eqn:E; cbn [orb]; [|reflexivity].
      apply Pos.eqb_eq in E. subst m. rewrite Em. destruct (mem n t); reflexivity.
  Qed.

  Lemma coords_rot l n : coords_of (map rotA l) n = moved_coords Rt M l n.
  Proof.
    unfold moved_coords, coords_of. induction l as [|x t IH]; [reflexivity|]. cbn [map find].
    rewrite rotA_name, rotA_flip. destruct (Pos.eqb (fa_name x) n && negb (fa_flip x)) eqn:E; [|exact IH].
    apply andb_true_iff in E. destruct E as [E1 E2]. apply Pos.eqb_eq in E1. subst n.
    unfold rotA. rewrite E2. cbn [andb]. destruct (mem (fa_name x) M); reflexivity.
  Qed.

  (* keeping the copies gives back the input coordinates *)
  Lemma coords_So n : coords_of So n = coords_of atoms0 n.
  Proof.
    unfold So, Sc. rewrite map_app, map_unflag_plain by (intros a Ha; apply filter_In in Ha; apply R0_plain, Ha).
    rewrite coords_app, (coords_filter (fun n => negb (inC n))), (coords_copies_of Mc), inC_spec.
    unfold R0. rewrite coords_rot. unfold moved_coords.
    pose proof (copied n) as Hc.
    destruct (mem n Mc), (coords_of atoms0 n) as [p|]; cbn [negb andb]; try reflexivity.
    destruct (mem n M); [|reflexivity]. discriminate Hc; [reflexivity | discriminate].
  Qed.

  (* the states a Flip object can be in; all but the first are left alone by every later call *)
  Definition good (r : fres P) : Prop :=
    r = (S0, false) \/ r = (R0, true) \/ r = (Sc, true) \/ r = (So, true).

  Lemma plain_settled (l : list (fatom P)) o : plain l -> apply_fop Mc (l, true) o = (l, true).
  Proof.
    intros Hp. destruct o as [[|]|]; cbn [apply_fop finalize fst snd]; [rewrite (can_fix_plain Mc l Hp) | |]; try reflexivity.
    destruct (can_fix Mc false l); [|reflexivity]. unfold fix_flip. rewrite filter_all; [reflexivity|].
    intros a Ha. rewrite (Hp a Ha). reflexivity.
  Qed.

  Lemma R0_in_coords a : In a R0 -> coords_of atoms0 (fa_name a) <> None.
  Proof.
    unfold R0. intros H. apply in_map_iff in H. destruct H as [b [<- Hb]]. rewrite rotA_name.
    unfold coords_of. destruct (find _ atoms0) eqn:E; [discriminate|].
    exfalso. pose proof (find_none _ _ E b Hb) as Hn. cbn beta in Hn.
    rewrite Pos.eqb_refl, (plain0 b Hb) in Hn. discriminate.
  Qed.

  Lemma can_fix_false_Sc : can_fix Mc false Sc = false.
  Proof.
    unfold can_fix. apply not_true_is_false. intros E. apply existsb_exists in E.
    destruct E as [a [Ha E]]. apply andb_true_iff in E. destruct E as [E1 E2].
    unfold Sc in Ha. apply in_app_or in Ha. destruct Ha as [Ha | Ha].
    - apply filter_In in Ha. destruct Ha as [Ha Hq]. rewrite inC_spec, E2 in Hq.
      pose proof (R0_in_coords a Ha) as Hc. destruct (coords_of atoms0 (fa_name a)); [discriminate | contradiction].
    - rewrite (copies_flip a Ha) in E1. discriminate.
  Qed.

  Lemma Sc_settled o : apply_fop Mc (Sc, true) o = (Sc, true).
  Proof.
    destruct o as [[|]|]; cbn [apply_fop finalize fst snd]; [rewrite fix_true_Sc | rewrite can_fix_false_Sc |]; try reflexivity.
    destruct (can_fix Mc true Sc); reflexivity.
  Qed.

  Lemma step_good r o : good r -> good (apply_fop Mc r o).
  Proof.
    intros [-> | [-> | [-> | ->]]].
    - destruct o as [[|]|]; cbn [apply_fop finalize fst snd].
      + destruct (can_fix Mc true _); [rewrite fix_true_S0; right; right; left | left]; reflexivity.
      + destruct (can_fix Mc false _); [rewrite fix_false_S0; right; left | left]; reflexivity.
      + rewrite fix_true_S0, (map_ext _ _ unflag_if). right; right; right. reflexivity.
    - rewrite (plain_settled R0 o R0_plain). right; left; reflexivity.
    - rewrite Sc_settled. right; right; left; reflexivity.
    - rewrite (plain_settled So o (unflagged_plain Sc)). right; right; right; reflexivity.
  Qed.

  Lemma run_good ops : forall r, good r -> good (fold_left (apply_fop Mc) ops r).
  Proof. induction ops as [|o t IH]; intros r H; [exact H|]. cbn [fold_left]. apply IH. apply step_good. exact H. Qed.

  Lemma complete_good r : good r -> complete r = (R0, true) \/ complete r = (So, true).
  Proof.
    intros [-> | [-> | [-> | ->]]]; unfold complete, finalize; cbn [fst snd].
    - right. rewrite fix_true_S0, (map_ext _ _ unflag_if). fold So. rewrite (map_unflag_plain So (unflagged_plain Sc)). reflexivity.
    - left. rewrite (map_unflag_plain R0 R0_plain). reflexivity.
    - right. reflexivity.
    - right. rewrite (map_unflag_plain So (unflagged_plain Sc)). reflexivity.
  Qed.

  Theorem flip_all_or_nothing ops :
    let r := flip_run Rt M Mc ops atoms0 in
    snd r = true /\
    (forall a, In a (fst r) -> fa_flip a = false) /\
    ((forall n, coords_of (fst r) n = coords_of atoms0 n) \/
     (forall n, coords_of (fst r) n = moved_coords Rt M atoms0 n)).
  Proof.
    cbv zeta. unfold flip_run. rewrite S0_eq.
    destruct (complete_good _ (run_good ops _ (or_introl eq_refl))) as [-> | ->]; cbn [fst snd].
    - split; [reflexivity|]. split; [exact R0_plain|]. right. intros n. apply coords_rot.
    - split; [reflexivity|]. split; [exact (unflagged_plain Sc) | left; exact coords_So].
  Qed.
End AllOrNothing.

(* the copy list of the code (HO dropped on a C-terminal residue) covers the rotated set
   unless HO itself rotates *)
Lemma copy_names_cover (HO : id) (ct : bool) (M : list id) n :
  (ct = false \/ mem HO M = false) -> mem n M = true -> mem n (copy_names HO ct M) = true.
Proof.
  intros H Hn. unfold copy_names. destruct ct; [|exact Hn].
  destruct H as [H | H]; [discriminate|].
  apply mem_In, filter_In. split; [apply mem_In, Hn|].
  destruct (Pos.eqb n HO) eqn:E; [|reflexivity]. apply Pos.eqb_eq in E. subst n. congruence.
Qed.

(* flip_all_or_nothing with the copy list the code computes ([copy_names]) *)
Theorem flip_all_or_nothing_code (P : Type) (Rt : P -> P) (HO : id) (is_c_term : bool) (M : list id)
        (atoms0 : list (fatom P)) (ops : list fop) :
  (forall a, In a atoms0 -> fa_flip a = false) ->
  (is_c_term = false \/ mem HO M = false) ->
  let r := flip_run Rt M (copy_names HO is_c_term M) ops atoms0 in
  snd r = true /\
  (forall a, In a (fst r) -> fa_flip a = false) /\
  ((forall n, coords_of (fst r) n = coords_of atoms0 n) \/
   (forall n, coords_of (fst r) n = moved_coords Rt M atoms0 n)).
Proof.
  intros Hp Hho. apply flip_all_or_nothing; [exact Hp|].
  intros n Hn _. apply copy_names_cover; assumption.
Qed.

Section FlipRigid.
  Context {P D : Type}.
  Variable dist : P -> P -> D.
  Variable Rt : P -> P.
  Hypothesis Rt_iso : forall x y, dist (Rt x) (Rt y) = dist x y.
  Variable keep : id -> bool.
  Variable g : graph.
  Variables b c : id.
  Variables M Mc : list id.
  Variable atoms0 : list (fatom P).
  Hypothesis plain0 : plain atoms0.
  Hypothesis copied : forall n, mem n M = true -> coords_of atoms0 n <> None -> mem n Mc = true.
  Variables pb pc : P.
  Hypothesis Hb : coords_of atoms0 b = Some pb.
  Hypothesis Hc : coords_of atoms0 c = Some pc.
  Hypothesis fix_b : Rt pb = pb.
  Hypothesis fix_c : Rt pc = pc.
  Hypothesis ok : rigid_ok keep g b c M = true.

  Definition pos_or (dflt : P) (n : id) : P :=
    match coords_of atoms0 n with Some p => p | None => dflt end.

  Theorem flip_rigid ops :
    let final := coords_of (fst (flip_run Rt M Mc ops atoms0)) in
    (forall u v pu pv, In u (nodes g) -> In v (nbrs g u) -> keep u = true -> keep v = true ->
       coords_of atoms0 u = Some pu -> coords_of atoms0 v = Some pv ->
       exists pu' pv', final u = Some pu' /\ final v = Some pv' /\ dist pu' pv' = dist pu pv) /\
    (forall u v w pu pw, In v (nodes g) -> In u (nbrs g v) -> In w (nbrs g v) ->
       keep u = true -> keep v = true -> keep w = true ->
       coords_of atoms0 u = Some pu -> coords_of atoms0 w = Some pw ->
       exists pu' pw', final u = Some pu' /\ final w = Some pw' /\ dist pu' pw' = dist pu pw).
  Proof.
    intros final.
    (* both theorems of Proofs/Moves.v, read on the coordinates present in the input *)
    assert (K : forall u w pu pw, coords_of atoms0 u = Some pu -> coords_of atoms0 w = Some pw ->
                dist (pos' P Rt M (pos_or pb) u) (pos' P Rt M (pos_or pb) w) = dist (pos_or pb u) (pos_or pb w) ->
                exists pu' pw', final u = Some pu' /\ final w = Some pw' /\ dist pu' pw' = dist pu pw).
    { intros u w pu pw Cu Cw Hd. unfold final.
      destruct (flip_all_or_nothing Rt M Mc atoms0 plain0 copied ops) as [_ [_ [H | H]]]; rewrite !H.
      - eauto.
      - unfold moved_coords. rewrite Cu, Cw. unfold pos', pos_or, inM in Hd. rewrite Cu, Cw in Hd. eauto. }
    assert (Fb : Rt (pos_or pb b) = pos_or pb b) by (unfold pos_or; rewrite Hb; exact fix_b).
    assert (Fc : Rt (pos_or pb c) = pos_or pb c) by (unfold pos_or; rewrite Hc; exact fix_c).
    split.
    - intros u v pu pv Hu Hv Ku Kv Cu Cv. apply (K u v pu pv Cu Cv).
      apply (bond_preserved P D dist Rt Rt_iso keep g b c M (pos_or pb) Fb Fc ok); assumption.
    - intros u v w pu pw Hv Hu Hw Ku Kv Kw Cu Cw. apply (K u w pu pw Cu Cw).
      apply (angle_preserved P D dist Rt Rt_iso keep g b c M (pos_or pb) Fb Fc ok u v w); assumption.
  Qed.
End FlipRigid.

(* non-vacuity: an ASN-like residue on the integer lattice; the motion is the 180-degree rotation
   about the z axis, on which CB and CG lie *)

Local Open Scope Z_scope.

Definition zpt : Type := (Z * Z * Z)%type.
Definition zrot (p : zpt) : zpt := let '(x, y, z) := p in (- x, - y, z).
Definition zdist (p q : zpt) : Z :=
  let '(x, y, z) := p in let '(x', y', z') := q in (x - x') * (x - x') + (y - y') * (y - y') + (z - z') * (z - z').

(* N=1 CA=2 C=3 CB=4 CG=5 OD1=6 ND2=7; flip dihedral CA CB CG OD1: axis CB - CG, moved {OD1, ND2} *)
Definition fx_graph : graph :=
  [(1, [2]); (2, [1; 3; 4]); (3, [2]); (4, [2; 5]); (5, [4; 6; 7]); (6, [5]); (7, [5])]%positive.
Definition fx_M : list id := [6; 7]%positive.
Definition fx_atoms : list (fatom zpt) :=
  [mkfatom 1%positive false (3, 1, -2); mkfatom 2%positive false (2, 0, -1); mkfatom 3%positive false (3, -1, -1);
   mkfatom 4%positive false (0, 0, 0); mkfatom 5%positive false (0, 0, 2);
   mkfatom 6%positive false (2, 0, 3); mkfatom 7%positive false (-2, 1, 3)].

Lemma flip_nonvacuous :
  rigid_ok (fun _ => true) fx_graph 4%positive 5%positive fx_M = true /\
  (forall p q, zdist (zrot p) (zrot q) = zdist p q) /\
  zrot (0, 0, 0) = (0, 0, 0) /\ zrot (0, 0, 2) = (0, 0, 2) /\
  (* no hydrogen bond found, or one to a *FLIP atom: the input coordinates, as new atoms at the end *)
  flip_run zrot fx_M fx_M [] fx_atoms
    = (firstn 5 fx_atoms ++ [mkfatom 6%positive false (2, 0, 3); mkfatom 7%positive false (-2, 1, 3)], true)%list /\
  flip_run zrot fx_M fx_M [FixFlip true; FixFlip false; Finalize] fx_atoms = flip_run zrot fx_M fx_M [] fx_atoms /\
  (* a hydrogen bond to a plain-named (rotated) atom: the whole set flipped *)
  flip_run zrot fx_M fx_M [FixFlip false; FixFlip true] fx_atoms
    = (firstn 5 fx_atoms ++ [mkfatom 6%positive false (-2, 0, 3); mkfatom 7%positive false (2, -1, 3)], true)%list /\
  (* flipping the flipped residue again gives the input back *)
  map (fun a => (fa_name a, fa_pos a)) (fst (flip_run zrot fx_M fx_M [FixFlip false] (fst (flip_run zrot fx_M fx_M [FixFlip false] fx_atoms))))
    = map (fun a => (fa_name a, fa_pos a)) fx_atoms.
Proof.
  split; [vm_compute; reflexivity|]. split.
  { intros [[x y] z] [[x' y'] z']. unfold zdist, zrot. ring. }
  repeat split; vm_compute; reflexivity.
Qed.
