(* C15, second layer: theorems about the Jacobi iteration of quatfit.jacobi
   itself (model: Model/Quatfit.v [jrot], [jsweeps], [jsort_step], [jacobi]),
   over the exact field R.

   What is proved here
     - one plane rotation [jrot] is an orthogonal similarity of the symmetric
       matrix the code maintains (strict upper triangle of amat + dvec) and
       multiplies vmat by the same plane rotation; over R the code's angle is
       the exact annihilating one, for every input;
     - hence trace / Frobenius norm are kept and the off-diagonal mass drops by
       2*a_pq^2 per rotation (classical Jacobi identity);
     - by induction over all pivot sequences and all fuel values: at every exit
       of [jsweeps] V is orthogonal and V^T A0 V = A_current;
     - a state with zero off-diagonal part ([offzero]) is a fixed point of the
       sweeps; when V^T A0 V is diagonal the columns of V are unit eigenvectors
       of A0 ([eigen_columns], [qf_column]) and r^T A0 r is at most the largest
       diagonal entry times |r|^2 ([qf_spectral], [qf_le_max]);
     - the selection sort puts a column belonging to a maximal dvec entry at
       position 3.
   Proofs/QuatfitExit.v assembles these into the exit theorem: the column
   picked by qtrfit is a unit maximiser of q^T A0 q, [eigen_contract] of
   [fit_exact_image] discharged; residual identity for inexact exits.
   NOT proved anywhere: that the off-diagonal mass reaches the threshold within
   the 30 sweeps (convergence), the effect of the non-zero threshold 1e-12
   beyond the residual identity, and rounding. *)
From Coq Require Import Reals List ZArith Lra Lia Nsatz Psatz Bool.
From PV Require Import Model.Quatfit Proofs.Quatfit.
Import ListNotations.
Local Open Scope R_scope.

Notation Rmat := (mat (A := R)).
Notation Rvec := (vec (A := R)).
Notation Rjstate := (jstate (A := R)).

(* 4x4 matrices as index functions; only indices 0..3 matter *)

Definition fmat : Type := nat -> nat -> R.

Definition tab4 (f : fmat) : Rmat :=
  [[f 0 0; f 0 1; f 0 2; f 0 3]; [f 1 0; f 1 1; f 1 2; f 1 3];
   [f 2 0; f 2 1; f 2 2; f 2 3]; [f 3 0; f 3 1; f 3 2; f 3 3]]%nat.
Definition tabv (d : nat -> R) : Rvec := [d 0; d 1; d 2; d 3]%nat.

(* [wf4 m]: m is the 4x4 table of its own entries, which holds as soon as m is
   a list of 4 lists of 4 entries (wf4_lengths); [wfv v]: likewise, 4 entries *)
Definition wf4 (m : Rmat) : Prop := m = tab4 (mget RA m).
Definition wfv (v : Rvec) : Prop := v = tabv (vget RA v).
Definition wfst (st : Rjstate) : Prop :=
  let '(am, vm, dv) := st in wf4 am /\ wf4 vm /\ wfv dv.

Lemma wf4_lengths : forall m : Rmat,
  length m = 4%nat -> Forall (fun r => length r = 4%nat) m -> wf4 m.
Proof.
  intros m Hl Hr. unfold wf4.
  destruct m as [| r0 [| r1 [| r2 [| r3 [| ? ?]]]]]; try discriminate Hl.
  inversion Hr as [| ? ? H0 Hr1]; subst. inversion Hr1 as [| ? ? H1 Hr2]; subst.
  inversion Hr2 as [| ? ? H2 Hr3]; subst. inversion Hr3 as [| ? ? H3 _]; subst.
  destruct r0 as [| ? [| ? [| ? [| ? [| ? ?]]]]]; try discriminate H0.
  destruct r1 as [| ? [| ? [| ? [| ? [| ? ?]]]]]; try discriminate H1.
  destruct r2 as [| ? [| ? [| ? [| ? [| ? ?]]]]]; try discriminate H2.
  destruct r3 as [| ? [| ? [| ? [| ? [| ? ?]]]]]; try discriminate H3.
  reflexivity.
Qed.

Definition meq (X Y : fmat) : Prop :=
  forall i j, (i < 4)%nat -> (j < 4)%nat -> X i j = Y i j.
Definition mI : fmat := fun i j => if (i =? j)%nat then 1 else 0.
Definition mT (X : fmat) : fmat := fun i j => X j i.
Definition mmul (X Y : fmat) : fmat :=
  fun i j => X i 0%nat * Y 0%nat j + X i 1%nat * Y 1%nat j + X i 2%nat * Y 2%nat j + X i 3%nat * Y 3%nat j.
Definition mdiag (d : nat -> R) : fmat := fun i j => if (i =? j)%nat then d i else 0.
Definition msym (X : fmat) : Prop := forall i j, X i j = X j i.
Definition trace4 (X : fmat) : R := X 0%nat 0%nat + X 1%nat 1%nat + X 2%nat 2%nat + X 3%nat 3%nat.
Definition sum4 (f : nat -> R) : R := f 0%nat + f 1%nat + f 2%nat + f 3%nat.
(* squared Frobenius norm *)
Definition frob2 (X : fmat) : R := sum4 (fun i => sum4 (fun j => X i j * X i j)).
(* off-diagonal mass of the full symmetric matrix: sum over i <> j *)
Definition off2 (X : fmat) : R :=
  sum4 (fun i => sum4 (fun j => if (i =? j)%nat then 0 else X i j * X i j)).

Definition orth (V : fmat) : Prop := meq (mmul (mT V) V) mI /\ meq (mmul V (mT V)) mI.

Lemma meq_refl : forall X, meq X X.
Proof. intros X i j _ _. reflexivity. Qed.
Lemma meq_sym : forall X Y, meq X Y -> meq Y X.
Proof. intros X Y H i j Hi Hj. symmetry. apply H; assumption. Qed.
Lemma meq_trans : forall X Y Z, meq X Y -> meq Y Z -> meq X Z.
Proof. intros X Y Z H1 H2 i j Hi Hj. rewrite H1, H2 by assumption. reflexivity. Qed.

Lemma mmul_meq : forall X X' Y Y', meq X X' -> meq Y Y' -> meq (mmul X Y) (mmul X' Y').
Proof.
  intros X X' Y Y' HX HY i j Hi Hj. unfold mmul.
  rewrite !(HX i) by (assumption || lia). rewrite !(fun k Hk => HY k j Hk Hj) by lia. reflexivity.
Qed.

Lemma mT_meq : forall X X', meq X X' -> meq (mT X) (mT X').
Proof. intros X X' H i j Hi Hj. unfold mT. apply H; assumption. Qed.

Lemma mmul_assoc : forall X Y Z i j, mmul (mmul X Y) Z i j = mmul X (mmul Y Z) i j.
Proof. intros. unfold mmul. ring. Qed.

Lemma mT_mmul : forall X Y i j, mT (mmul X Y) i j = mmul (mT Y) (mT X) i j.
Proof. intros. unfold mT, mmul. ring. Qed.

Lemma mmul_I_r : forall X, meq (mmul X mI) X.
Proof.
  intros X i j Hi Hj. unfold mmul, mI.
  destruct j as [| [| [| [| j]]]]; try lia; cbn [Nat.eqb]; ring.
Qed.

Lemma mmul_I_l : forall X, meq (mmul mI X) X.
Proof.
  intros X i j Hi Hj. unfold mmul, mI.
  destruct i as [| [| [| [| i]]]]; try lia; cbn [Nat.eqb]; ring.
Qed.

(* the symmetric matrix the code maintains: diagonal = dvec, off-diagonal
   = STRICT UPPER triangle of amat.  The diagonal and the lower triangle of
   amat are never read nor written by the rotations (stale / junk). *)

Definition symf (am : Rmat) (dv : Rvec) : fmat := fun i j =>
  if (i =? j)%nat then vget RA dv i
  else if (i <? j)%nat then mget RA am i j else mget RA am j i.

Definition st_sym (st : Rjstate) : fmat := let '(am, _, dv) := st in symf am dv.
Definition st_V (st : Rjstate) : fmat := let '(_, vm, _) := st in mget RA vm.

Lemma symf_sym : forall am dv, msym (symf am dv).
Proof.
  intros am dv i j. unfold symf.
  destruct (Nat.eqb_spec i j) as [-> | Hne].
  - rewrite Nat.eqb_refl. reflexivity.
  - destruct (Nat.eqb_spec j i) as [E | _]; [ congruence | ].
    destruct (Nat.ltb_spec i j), (Nat.ltb_spec j i); try reflexivity; lia.
Qed.

(* the plane rotation J(p,q;c,s): identity except J_pp = J_qq = c, J_pq = s, J_qp = -s *)
Definition planeJ (c s : R) (p q : nat) : fmat := fun i j =>
  if (i =? p)%nat && (j =? p)%nat then c
  else if (i =? q)%nat && (j =? q)%nat then c
  else if (i =? p)%nat && (j =? q)%nat then s
  else if (i =? q)%nat && (j =? p)%nat then - s
  else if (i =? j)%nat then 1 else 0.

(* the code's rotation angle: (cscl, sscl) exactly as jrot computes them from bscl = amat[i][j] and
   dma = dvec[j] - dvec[i] *)
Definition jcs (bscl dma : R) : R * R :=
  let tscl :=
    if a_leb R RA (a_add R RA (a_abs R RA dma) (a_abs R RA bscl)) (a_abs R RA dma)
    then a_div R RA bscl dma
    else
      let qscl := a_div R RA (a_mul R RA (a_half R RA) dma) bscl in
      let t := a_div R RA (a_one R RA)
                 (a_add R RA (a_abs R RA qscl) (a_sqrt R RA (a_add R RA (a_one R RA) (a_mul R RA qscl qscl)))) in
      if a_ltb R RA qscl (a_zero R RA) then a_mul R RA t (a_ofZ R RA (-1)) else t in
  let cscl := a_div R RA (a_one R RA) (a_sqrt R RA (a_add R RA (a_mul R RA tscl tscl) (a_one R RA))) in
  (cscl, a_mul R RA tscl cscl).

(* the body of jrot for given (cscl, sscl) *)
Definition jrot_apply (cscl sscl : R) (st : Rjstate) (ij : nat * nat) : Rjstate :=
  let '(am, vm, dv) := st in
  let i := fst ij in
  let j := snd ij in
  let bscl := mget RA am i j in
  let am := mset am i j 0 in
  let am :=
    fold_left
      (fun am k =>
         let atemp := cscl * mget RA am k i - sscl * mget RA am k j in
         let am := mset am k j (sscl * mget RA am k i + cscl * mget RA am k j) in
         mset am k i atemp)
      (seq 0 i) am in
  let am :=
    fold_left
      (fun am k =>
         let atemp := cscl * mget RA am i k - sscl * mget RA am k j in
         let am := mset am k j (sscl * mget RA am i k + cscl * mget RA am k j) in
         mset am i k atemp)
      (seq (S i) (j - S i)) am in
  let am :=
    fold_left
      (fun am k =>
         let atemp := cscl * mget RA am i k - sscl * mget RA am j k in
         let am := mset am j k (sscl * mget RA am i k + cscl * mget RA am j k) in
         mset am i k atemp)
      (seq (S j) (4 - S j)) am in
  let vm :=
    fold_left
      (fun vm k =>
         let vtemp := cscl * mget RA vm k i - sscl * mget RA vm k j in
         let vm := mset vm k j (sscl * mget RA vm k i + cscl * mget RA vm k j) in
         mset vm k i vtemp)
      (seq 0 4) vm in
  let di := vget RA dv i in
  let dj := vget RA dv j in
  let dtemp := cscl * cscl * di + sscl * sscl * dj - 2 * cscl * sscl * bscl in
  let dv := vset dv j (sscl * sscl * di + cscl * cscl * dj + 2 * cscl * sscl * bscl) in
  let dv := vset dv i dtemp in
  (am, vm, dv).

(* jrot = threshold test + jcs + jrot_apply, by computation *)
Lemma jrot_unfold : forall (am vm : Rmat) (dv : Rvec) (ij : nat * nat),
  jrot RA (am, vm, dv) ij =
  let b := mget RA am (fst ij) (snd ij) in
  if Rltb 0 (Rabs b) then
    let cs := jcs b (vget RA dv (snd ij) - vget RA dv (fst ij)) in
    jrot_apply (fst cs) (snd cs) (am, vm, dv) ij
  else (am, vm, dv).
Proof. intros. reflexivity. Qed.

(* Over R the code's (c, s) is a point of the unit circle and is the EXACT
   annihilating angle: the (p,q) entry of J^T A J vanishes.  The branch
   `abs(dma) + abs(bscl) <= abs(dma)` (tscl = bscl/dma) is dead over R when
   bscl <> 0; in binary64 it is taken when bscl is negligible against dma. *)
Lemma jcs_exact : forall b dp dq : R, b <> 0 ->
  let cs := jcs b (dq - dp) in
  let c := fst cs in let s := snd cs in
  c * c + s * s = 1 /\ c * s * (dp - dq) + (c * c - s * s) * b = 0.
Proof.
  intros b dp dq Hb. cbv zeta.
  unfold jcs. cbn [a_leb a_add a_abs a_div a_mul a_half a_one a_zero a_sqrt a_ltb a_ofZ RArith].
  set (dma := dq - dp).
  assert (Hab : 0 < Rabs b) by (apply Rabs_pos_lt; exact Hb).
  unfold Rleb. destruct (Rle_dec (Rabs dma + Rabs b) (Rabs dma)) as [Hle | _]; [ lra | ].
  set (th := / 2 * dma / b).
  assert (Hr0 : 0 <= 1 + th * th) by nra.
  set (r := sqrt (1 + th * th)).
  assert (Hrr : r * r = 1 + th * th) by (apply sqrt_sqrt; exact Hr0).
  assert (Hr1 : 1 <= r).
  { destruct (Rle_lt_dec 1 r) as [H | H]; [ exact H | ].
    assert (0 <= r) by (apply sqrt_pos). nra. }
  assert (Hden : 0 < Rabs th + r) by (generalize (Rabs_pos th); lra).
  (* t solves t^2 + 2 th t - 1 = 0 *)
  set (t := if Rltb th 0 then 1 / (Rabs th + r) * -1 else 1 / (Rabs th + r)).
  assert (Ht : t * t + 2 * th * t - 1 = 0).
  { unfold t, Rltb. destruct (Rlt_dec th 0) as [Hneg | Hpos].
    - rewrite (Rabs_left th Hneg). rewrite (Rabs_left th Hneg) in Hden.
      transitivity ((1 + th * th - r * r) / ((- th + r) * (- th + r))); [ field; lra | ].
      rewrite Hrr. unfold Rdiv. ring.
    - assert (Hth : 0 <= th) by lra. rewrite (Rabs_right th) by lra. rewrite (Rabs_right th) in Hden by lra.
      transitivity ((1 + th * th - r * r) / ((th + r) * (th + r))); [ field; lra | ].
      rewrite Hrr. unfold Rdiv. ring. }
  clearbody t.
  assert (Hu0 : 0 < t * t + 1) by nra.
  set (u := sqrt (t * t + 1)).
  assert (Huu : u * u = t * t + 1) by (apply sqrt_sqrt; lra).
  assert (Hu : u <> 0).
  { intro Hz. rewrite Hz in Huu. lra. }
  cbn [fst snd].
  assert (Hth : 2 * th * b = dma) by (unfold th; field; exact Hb).
  assert (Hd : dp - dq = - dma) by (unfold dma; ring).
  clearbody u th. clear Hden Hr1 Hrr Hr0. clearbody dma.
  assert (Hc : 1 / u * (1 / u) * (t * t + 1) = 1) by (rewrite <- Huu; field; exact Hu).
  split.
  - transitivity (1 / u * (1 / u) * (t * t + 1)); [ ring | exact Hc ].
  - transitivity (1 / u * (1 / u) * (- b * (t * t + 2 * th * t - 1))).
    + rewrite Hd, <- Hth. ring.
    + rewrite Ht. ring.
Qed.

(* one rotation with given (c, s) on a 4x4 state, per pivot pair *)

Ltac idx4 i Hi := destruct i as [| [| [| [| i]]]]; [ | | | | exfalso; lia ].

Ltac calc := cbv - [Rplus Rmult Rminus Ropp Rinv Rdiv IZR].

(* case analysis over the six pivot pairs of the code *)
Lemma pairs_case : forall P : nat -> nat -> Prop,
  P 0%nat 1%nat -> P 0%nat 2%nat -> P 1%nat 2%nat -> P 0%nat 3%nat -> P 1%nat 3%nat -> P 2%nat 3%nat ->
  forall p q, In (p, q) pairs -> P p q.
Proof.
  intros P H01 H02 H12 H03 H13 H23 p q Hin. unfold pairs in Hin. cbn [In] in Hin.
  destruct Hin as [E | [E | [E | [E | [E | [E | []]]]]]]; inversion E; subst p q; assumption.
Qed.

(* The loops of jrot, run on a 4x4 state for each pivot pair and compared entry
   by entry with J^T A J and V J.  Only the pivot entry, which the code sets
   to 0 instead of computing it, needs the annihilation equation. *)
Lemma jrot_apply_spec : forall (a v : fmat) (d : nat -> R) (c s : R) (p q : nat),
  In (p, q) pairs ->
  c * s * (d p - d q) + (c * c - s * s) * a p q = 0 ->
  let st := (tab4 a, tab4 v, tabv d) in
  let st' := jrot_apply c s st (p, q) in
  wfst st' /\
  meq (st_sym st') (mmul (mT (planeJ c s p q)) (mmul (st_sym st) (planeJ c s p q))) /\
  meq (st_V st') (mmul (st_V st) (planeJ c s p q)) /\
  (forall i j, (i < 4)%nat -> (j <= i)%nat -> mget RA (fst (fst st')) i j = a i j).
Proof.
  intros a v d c s p q Hin. pattern p, q. revert p q Hin.
  apply pairs_case; intros Hann st st'; cbv - [Rplus Rmult Rminus Ropp Rinv Rdiv IZR] in st';
  (split; [ calc; repeat split; reflexivity | ]);
  (split; [ intros i j Hi Hj; idx4 i Hi; idx4 j Hj; calc;
            first [ ring | etransitivity; [ symmetry; exact Hann | ring ] ] | ]);
  (split; [ intros i j Hi Hj; idx4 i Hi; idx4 j Hj; calc; ring | ]);
  (intros i j Hi Hj; idx4 i Hi; idx4 j Hj; try (exfalso; lia); reflexivity).
Qed.

(* 2x2 block: the diagonal gains exactly what the annihilated entry loses *)
Lemma diag2x2 : forall c s dp dq b : R,
  c * c + s * s = 1 -> c * s * (dp - dq) + (c * c - s * s) * b = 0 ->
  (c * c * dp + s * s * dq - 2 * c * s * b) * (c * c * dp + s * s * dq - 2 * c * s * b)
  + (s * s * dp + c * c * dq + 2 * c * s * b) * (s * s * dp + c * c * dq + 2 * c * s * b)
  = dp * dp + dq * dq + 2 * (b * b).
Proof. intros c s dp dq b Hcs Hann. nsatz. Qed.

Lemma jrot_apply_diag : forall (a v : fmat) (d : nat -> R) (c s : R) (p q : nat),
  In (p, q) pairs ->
  c * c + s * s = 1 ->
  c * s * (d p - d q) + (c * c - s * s) * a p q = 0 ->
  let st' := jrot_apply c s (tab4 a, tab4 v, tabv d) (p, q) in
  sum4 (fun i => st_sym st' i i * st_sym st' i i) = sum4 (fun i => d i * d i) + 2 * (a p q * a p q).
Proof.
  intros a v d c s p q Hin Hcs Hann st'.
  assert (H2 := diag2x2 c s (d p) (d q) (a p q) Hcs Hann). clear Hcs Hann.
  revert st' H2. pattern p, q. revert p q Hin. apply pairs_case; intros st' H2; calc; lra.
Qed.

(* plane rotations in one plane compose by adding their angles *)
Lemma planeJ_mul : forall (c s c' s' : R) (p q : nat), In (p, q) pairs ->
  meq (mmul (planeJ c s p q) (planeJ c' s' p q)) (planeJ (c * c' - s * s') (c * s' + s * c') p q).
Proof.
  intros c s c' s' p q Hin. revert p q Hin.
  apply pairs_case; intros i j Hi Hj; idx4 i Hi; idx4 j Hj; calc; ring.
Qed.

(* J^T is the rotation by the opposite angle *)
Lemma planeJ_T : forall (c s : R) (p q : nat), In (p, q) pairs ->
  meq (mT (planeJ c s p q)) (planeJ c (- s) p q).
Proof.
  intros c s p q Hin. revert p q Hin.
  apply pairs_case; intros i j Hi Hj; idx4 i Hi; idx4 j Hj; calc; ring.
Qed.

Lemma planeJ_id : forall (p q : nat), In (p, q) pairs -> meq (planeJ 1 0 p q) mI.
Proof.
  intros p q Hin. revert p q Hin.
  apply pairs_case; intros i j Hi Hj; idx4 i Hi; idx4 j Hj; calc; ring.
Qed.

Lemma planeJ_orth : forall (c s : R) (p q : nat),
  In (p, q) pairs -> c * c + s * s = 1 -> orth (planeJ c s p q).
Proof.
  intros c s p q Hin Hcs. split.
  - apply (meq_trans _ (mmul (planeJ c (- s) p q) (planeJ c s p q))).
    { apply mmul_meq; [ apply planeJ_T; exact Hin | apply meq_refl ]. }
    apply (meq_trans _ _ _ (planeJ_mul c (- s) c s p q Hin)).
    replace (c * c - - s * s) with 1 by (rewrite <- Hcs; ring).
    replace (c * s + - s * c) with 0 by ring. apply planeJ_id; exact Hin.
  - apply (meq_trans _ (mmul (planeJ c s p q) (planeJ c (- s) p q))).
    { apply mmul_meq; [ apply meq_refl | apply planeJ_T; exact Hin ]. }
    apply (meq_trans _ _ _ (planeJ_mul c s c (- s) p q Hin)).
    replace (c * c - s * - s) with 1 by (rewrite <- Hcs; ring).
    replace (c * - s + s * c) with 0 by ring. apply planeJ_id; exact Hin.
Qed.

(* orthogonal similarity keeps trace and Frobenius norm *)

Lemma trace4_meq : forall X Y, meq X Y -> trace4 X = trace4 Y.
Proof. intros X Y H. unfold trace4. rewrite !H by lia. reflexivity. Qed.

Lemma frob2_meq : forall X Y, meq X Y -> frob2 X = frob2 Y.
Proof. intros X Y H. unfold frob2, sum4. rewrite !H by lia. reflexivity. Qed.

Lemma off2_meq : forall X Y, meq X Y -> off2 X = off2 Y.
Proof. intros X Y H. unfold off2, sum4. cbn [Nat.eqb]. rewrite !H by lia. reflexivity. Qed.

Lemma off2_frob2 : forall X, off2 X = frob2 X - sum4 (fun i => X i i * X i i).
Proof. intro X. unfold off2, frob2, sum4. cbn [Nat.eqb]. ring. Qed.

Lemma trace4_similarity : forall J A, meq (mmul J (mT J)) mI ->
  trace4 (mmul (mT J) (mmul A J)) = trace4 A.
Proof.
  intros J A H.
  transitivity (sum4 (fun k => sum4 (fun l => A k l * mmul J (mT J) l k))).
  - unfold trace4, sum4, mmul, mT. ring.
  - unfold sum4. rewrite !H by lia. unfold mI, trace4. cbn [Nat.eqb]. ring.
Qed.

(* every row of X J has the norm of the same row of X *)
Lemma frob2_mul_r : forall J X, meq (mmul J (mT J)) mI -> frob2 (mmul X J) = frob2 X.
Proof.
  intros J X H.
  assert (Row : forall i, sum4 (fun j => mmul X J i j * mmul X J i j) = sum4 (fun k => X i k * X i k)).
  { intro i. transitivity (sum4 (fun k => sum4 (fun l => X i k * X i l * mmul J (mT J) k l))).
    - unfold sum4, mmul, mT. ring.
    - unfold sum4. rewrite !H by lia. unfold mI. cbn [Nat.eqb]. ring. }
  unfold frob2. unfold sum4 at 1 3. rewrite !Row. reflexivity.
Qed.

Lemma frob2_mT : forall X, frob2 (mT X) = frob2 X.
Proof. intro X. unfold frob2, sum4, mT. ring. Qed.

(* the mirror image, by transposition: (J^T Y)^T = Y^T J *)
Lemma frob2_mul_l : forall J Y, meq (mmul J (mT J)) mI -> frob2 (mmul (mT J) Y) = frob2 Y.
Proof.
  intros J Y H. rewrite <- (frob2_mT (mmul (mT J) Y)), <- (frob2_mT Y), <- (frob2_mul_r J (mT Y) H).
  apply frob2_meq. intros i j _ _. apply mT_mmul.
Qed.

Lemma frob2_similarity : forall J A, meq (mmul J (mT J)) mI ->
  frob2 (mmul (mT J) (mmul A J)) = frob2 A.
Proof. intros J A H. rewrite frob2_mul_l by exact H. apply frob2_mul_r; exact H. Qed.

(* products of orthogonal matrices; transport of V^T A0 V *)
Lemma orth_meq : forall V W, meq V W -> orth W -> orth V.
Proof.
  intros V W H [H1 H2]. split.
  - apply (meq_trans _ (mmul (mT W) W)); [ apply mmul_meq; [ apply mT_meq | ]; exact H | exact H1 ].
  - apply (meq_trans _ (mmul W (mT W))); [ apply mmul_meq; [ | apply mT_meq ]; exact H | exact H2 ].
Qed.

Lemma orth_mul : forall V J, orth V -> orth J -> orth (mmul V J).
Proof.
  intros V J [V1 V2] [J1 J2]. split; intros i j Hi Hj.
  - transitivity (sum4 (fun k => sum4 (fun l => J k i * J l j * mmul (mT V) V k l))).
    + unfold sum4, mmul, mT. ring.
    + unfold sum4. rewrite !V1 by lia. rewrite <- (J1 i j Hi Hj). unfold mI, mmul, mT. cbn [Nat.eqb]. ring.
  - transitivity (sum4 (fun k => sum4 (fun l => V i k * V j l * mmul J (mT J) k l))).
    + unfold sum4, mmul, mT. ring.
    + unfold sum4. rewrite !J2 by lia. rewrite <- (V2 i j Hi Hj). unfold mI, mmul, mT. cbn [Nat.eqb]. ring.
Qed.

Lemma conj_mul : forall A0 V J S, meq (mmul (mT V) (mmul A0 V)) S ->
  meq (mmul (mT (mmul V J)) (mmul A0 (mmul V J))) (mmul (mT J) (mmul S J)).
Proof.
  intros A0 V J S H i j Hi Hj.
  transitivity (sum4 (fun k => sum4 (fun l => J k i * J l j * mmul (mT V) (mmul A0 V) k l))).
  - unfold sum4, mmul, mT. ring.
  - unfold sum4. rewrite !H by lia. unfold mmul, mT. ring.
Qed.

Lemma conj_meq : forall A0 V W, meq V W ->
  meq (mmul (mT V) (mmul A0 V)) (mmul (mT W) (mmul A0 W)).
Proof.
  intros A0 V W H. apply mmul_meq; [ apply mT_meq; exact H | apply mmul_meq; [ apply meq_refl | exact H ] ].
Qed.

Lemma mget_tab4 : forall (a : fmat) i j, (i < 4)%nat -> (j < 4)%nat -> mget RA (tab4 a) i j = a i j.
Proof. intros a i j Hi Hj. idx4 i Hi; idx4 j Hj; reflexivity. Qed.

Lemma vget_tabv : forall (d : nat -> R) i, (i < 4)%nat -> vget RA (tabv d) i = d i.
Proof. intros d i Hi. idx4 i Hi; reflexivity. Qed.

Lemma pairs_bound : forall p q, In (p, q) pairs -> (p < q)%nat /\ (q < 4)%nat.
Proof.
  intros p q Hin. revert p q Hin. apply pairs_case; lia.
Qed.

Lemma symf_upper : forall am dv p q, (p < q)%nat -> symf am dv p q = mget RA am p q.
Proof.
  intros am dv p q H. unfold symf.
  destruct (Nat.eqb_spec p q); [ lia | ]. destruct (Nat.ltb_spec p q); [ reflexivity | lia ].
Qed.

Lemma symf_diag : forall am dv i, symf am dv i i = vget RA dv i.
Proof. intros am dv i. unfold symf. now rewrite Nat.eqb_refl. Qed.

Lemma jrot_apply_zero : forall (a v : fmat) (d : nat -> R) (c s : R) (p q : nat),
  In (p, q) pairs -> st_sym (jrot_apply c s (tab4 a, tab4 v, tabv d) (p, q)) p q = 0.
Proof.
  intros a v d c s p q Hin. revert p q Hin. apply pairs_case; reflexivity.
Qed.

Lemma sim_I : forall S : fmat, meq S (mmul (mT mI) (mmul S mI)).
Proof.
  intros S i j Hi Hj. idx4 i Hi; idx4 j Hj; unfold mmul, mT, mI; cbn [Nat.eqb]; ring.
Qed.

Lemma wfst_tab : forall st : Rjstate, wfst st ->
  exists a v d, st = (tab4 a, tab4 v, tabv d).
Proof.
  intros [[am vm] dv] (Ha & Hv & Hd).
  exists (mget RA am), (mget RA vm), (vget RA dv). rewrite <- Ha, <- Hv, <- Hd. reflexivity.
Qed.

(* One Jacobi rotation of the model is an orthogonal similarity.  [st_sym] =
   the symmetric matrix the code maintains (dvec on the
   diagonal, STRICT UPPER triangle of amat off it); the diagonal and lower
   triangle of amat are a frame (last conjunct: never written).  For the
   pivot (p,q) there is a plane rotation J = planeJ c s p q (c^2 + s^2 = 1) with
   A' = J^T A J, V' = V J, and the pivot entry of A' is zero: over R the
   code's angle is the exact one (when |a_pq| > 0 fails, a_pq = 0, J = I). *)
Theorem jrot_similarity : forall (st : Rjstate) (p q : nat),
  wfst st -> In (p, q) pairs ->
  let st' := jrot RA st (p, q) in
  wfst st' /\
  exists c s : R,
    c * c + s * s = 1 /\
    meq (st_sym st') (mmul (mT (planeJ c s p q)) (mmul (st_sym st) (planeJ c s p q))) /\
    meq (st_V st') (mmul (st_V st) (planeJ c s p q)) /\
    st_sym st' p q = 0 /\
    sum4 (fun i => st_sym st' i i * st_sym st' i i)
      = sum4 (fun i => st_sym st i i * st_sym st i i) + 2 * (st_sym st p q * st_sym st p q) /\
    (forall i j, (i < 4)%nat -> (j <= i)%nat -> mget RA (fst (fst st')) i j = mget RA (fst (fst st)) i j).
Proof.
  intros st p q Hwf Hin st'.
  destruct (wfst_tab st Hwf) as (a & v & d & ->).
  destruct (pairs_bound p q Hin) as [Hpq Hq].
  assert (Hp : (p < 4)%nat) by lia.
  unfold st'. rewrite jrot_unfold. cbv zeta. cbn [fst snd].
  rewrite (mget_tab4 a p q Hp Hq), (vget_tabv d p Hp), (vget_tabv d q Hq).
  assert (Hsym : st_sym (tab4 a, tab4 v, tabv d) p q = a p q).
  { cbn [st_sym]. rewrite symf_upper by exact Hpq. apply mget_tab4; assumption. }
  assert (Hdiag : forall i, (i < 4)%nat -> st_sym (tab4 a, tab4 v, tabv d) i i = d i).
  { intros i Hi. cbn [st_sym]. rewrite symf_diag. apply vget_tabv; exact Hi. }
  unfold Rltb. destruct (Rlt_dec 0 (Rabs (a p q))) as [Hpos | Hnpos].
  - assert (Hb : a p q <> 0).
    { intro Hz. rewrite Hz, Rabs_R0 in Hpos. lra. }
    destruct (jcs_exact (a p q) (d p) (d q) Hb) as [Hcs Hann].
    set (cs := jcs (a p q) (d q - d p)) in *.
    destruct (jrot_apply_spec a v d (fst cs) (snd cs) p q Hin Hann) as (W & S1 & S2 & S3).
    split; [ exact W | ].
    exists (fst cs), (snd cs).
    split; [ exact Hcs | ]. split; [ exact S1 | ]. split; [ exact S2 | ].
    split; [ apply jrot_apply_zero; exact Hin | ].
    split.
    + rewrite (jrot_apply_diag a v d (fst cs) (snd cs) p q Hin Hcs Hann).
      rewrite Hsym. unfold sum4. rewrite !Hdiag by lia. reflexivity.
    + intros i j Hi Hj. rewrite (S3 i j Hi Hj). cbn [fst]. symmetry. apply mget_tab4; lia.
  - assert (Hb : a p q = 0).
    { destruct (Req_dec (a p q) 0) as [Hz | Hnz]; [ exact Hz | ].
      exfalso. apply Hnpos. apply Rabs_pos_lt. exact Hnz. }
    split; [ exact Hwf | ].
    exists 1, 0.
    split; [ ring | ].
    split.
    { apply (meq_trans _ (mmul (mT mI) (mmul (st_sym (tab4 a, tab4 v, tabv d)) mI))); [ apply sim_I | ].
      apply meq_sym. apply mmul_meq; [ apply mT_meq; apply planeJ_id; exact Hin | ].
      apply mmul_meq; [ apply meq_refl | apply planeJ_id; exact Hin ]. }
    split.
    { apply meq_sym. apply (meq_trans _ (mmul (st_V (tab4 a, tab4 v, tabv d)) mI)).
      - apply mmul_meq; [ apply meq_refl | apply planeJ_id; exact Hin ].
      - apply mmul_I_r. }
    split; [ rewrite Hsym; exact Hb | ].
    split; [ rewrite Hsym, Hb; ring | ].
    intros; reflexivity.
Qed.

(* trace and Frobenius norm are kept; the off-diagonal mass (sum over
   i <> j of the full symmetric matrix) drops by 2 a_pq^2 *)
Corollary jrot_masses : forall (st : Rjstate) (p q : nat),
  wfst st -> In (p, q) pairs ->
  let st' := jrot RA st (p, q) in
  trace4 (st_sym st') = trace4 (st_sym st) /\
  frob2 (st_sym st') = frob2 (st_sym st) /\
  off2 (st_sym st') = off2 (st_sym st) - 2 * (st_sym st p q * st_sym st p q).
Proof.
  intros st p q Hwf Hin st'.
  destruct (jrot_similarity st p q Hwf Hin) as (_ & c & s & Hcs & S1 & _ & _ & Hd & _).
  fold st' in S1, Hd.
  destruct (planeJ_orth c s p q Hin Hcs) as [_ J2].
  assert (T : trace4 (st_sym st') = trace4 (st_sym st)).
  { rewrite (trace4_meq _ _ S1). apply trace4_similarity; exact J2. }
  assert (F : frob2 (st_sym st') = frob2 (st_sym st)).
  { rewrite (frob2_meq _ _ S1). apply frob2_similarity; exact J2. }
  split; [ exact T | ]. split; [ exact F | ].
  rewrite !off2_frob2, F, Hd. ring.
Qed.

(* the invariant [jinv], for every pivot sequence and every fuel value *)

Definition jinv (A0 : fmat) (st : Rjstate) : Prop :=
  wfst st /\ orth (st_V st) /\ meq (mmul (mT (st_V st)) (mmul A0 (st_V st))) (st_sym st).

Lemma jinv_step : forall A0 st p q, jinv A0 st -> In (p, q) pairs -> jinv A0 (jrot RA st (p, q)).
Proof.
  intros A0 st p q (Hwf & Ho & Hc) Hin.
  destruct (jrot_similarity st p q Hwf Hin) as (W & c & s & Hcs & S1 & S2 & _).
  assert (HJ := planeJ_orth c s p q Hin Hcs).
  split; [ exact W | ]. split.
  - apply (orth_meq _ _ S2). apply orth_mul; assumption.
  - apply (meq_trans _ _ _ (conj_meq A0 _ _ S2)).
    apply (meq_trans _ _ _ (conj_mul A0 _ _ _ Hc)). apply meq_sym. exact S1.
Qed.

Lemma jinv_fold : forall A0 (l : list (nat * nat)) st,
  (forall ij, In ij l -> In ij pairs) -> jinv A0 st -> jinv A0 (fold_left (jrot RA) l st).
Proof.
  intros A0 l. induction l as [| [p q] t IH]; intros st Hl Hinv; cbn [fold_left].
  - exact Hinv.
  - apply IH; [ intros ij H; apply Hl; right; exact H | ].
    apply jinv_step; [ exact Hinv | apply Hl; left; reflexivity ].
Qed.

Lemma jinv_sweeps : forall A0 (fuel : nat) st, jinv A0 st -> jinv A0 (jsweeps RA fuel st).
Proof.
  intros A0 fuel. induction fuel as [| f IH]; intros st Hinv; cbn [jsweeps].
  - exact Hinv.
  - destruct (jconverged RA st); [ exact Hinv | ].
    apply IH. apply jinv_fold; [ intros ij H; exact H | exact Hinv ].
Qed.

(* the matrix jacobi diagonalises: the symmetric matrix whose upper triangle
   (diagonal included) is that of the argument; the lower triangle is ignored *)
Definition A0_of (am : Rmat) : fmat := st_sym (jinit RA am).

Lemma A0_of_eq : forall (am : Rmat) i j, (i < 4)%nat -> (j < 4)%nat ->
  A0_of am i j = if (i <=? j)%nat then mget RA am i j else mget RA am j i.
Proof. intros am i j Hi Hj. idx4 i Hi; idx4 j Hj; reflexivity. Qed.

Lemma jinv_init : forall am : Rmat, wf4 am -> jinv (A0_of am) (jinit RA am).
Proof.
  intros am Hwf. unfold A0_of.
  assert (E : meq (st_V (jinit RA am)) mI) by (intros i j Hi Hj; idx4 i Hi; idx4 j Hj; reflexivity).
  split; [ | split ].
  - unfold jinit. cbn [wfst]. split; [ exact Hwf | ]. split; reflexivity.
  - apply (orth_meq _ _ E).
    split; intros i j Hi Hj; idx4 i Hi; idx4 j Hj; unfold mmul, mT, mI; cbn [Nat.eqb]; ring.
  - apply (meq_trans _ _ _ (conj_meq _ _ _ E)). apply meq_sym. apply sim_I.
Qed.

Theorem jacobi_invariant : forall (am : Rmat) (nrot : nat), wf4 am ->
  jinv (A0_of am) (jsweeps RA nrot (jinit RA am)).
Proof. intros am nrot Hwf. apply jinv_sweeps. apply jinv_init. exact Hwf. Qed.

(* exit with zero off-diagonal part *)

Definition offzero (st : Rjstate) : Prop :=
  forall p q, In (p, q) pairs -> st_sym st p q = 0.

Definition qf (A : fmat) (r : nat -> R) : R :=
  sum4 (fun i => sum4 (fun j => r i * A i j * r j)).
Definition n2 (r : nat -> R) : R := sum4 (fun i => r i * r i).

Lemma offzero_diag : forall st, offzero st -> meq (st_sym st) (mdiag (fun k => st_sym st k k)).
Proof.
  intros [[am vm] dv] H i j Hi Hj. unfold mdiag.
  assert (S := symf_sym am dv). cbn [st_sym] in *.
  idx4 i Hi; idx4 j Hj; cbn [Nat.eqb]; try reflexivity;
  first [ apply H; unfold pairs; cbn [In]; tauto
        | rewrite S; apply H; unfold pairs; cbn [In]; tauto ].
Qed.

(* no rotation happens any more: the state is a fixed point of every sweep *)
Lemma offzero_fixed : forall st (fuel : nat), offzero st -> jsweeps RA fuel st = st.
Proof.
  intros st fuel Hz.
  assert (Hrot : forall p q, In (p, q) pairs -> jrot RA st (p, q) = st).
  { intros p q Hin. assert (Hb := Hz p q Hin). destruct st as [[am vm] dv]. cbn [st_sym] in Hb.
    rewrite symf_upper in Hb by exact (proj1 (pairs_bound p q Hin)).
    rewrite jrot_unfold. cbv zeta. cbn [fst snd]. rewrite Hb, Rabs_R0.
    unfold Rltb. destruct (Rlt_dec 0 0); [ lra | reflexivity ]. }
  assert (Hfold : forall l, (forall ij, In ij l -> In ij pairs) -> fold_left (jrot RA) l st = st).
  { induction l as [| [p q] t IH]; intro Hl; cbn [fold_left]; [ reflexivity | ].
    rewrite Hrot by (apply Hl; left; reflexivity). apply IH. intros ij H; apply Hl; right; exact H. }
  induction fuel as [| f IH]; cbn [jsweeps]; [ reflexivity | ].
  destruct (jconverged RA st); [ reflexivity | ].
  rewrite Hfold by (intros ij H; exact H). exact IH.
Qed.

(* with V^T A0 V = S and V V^T = I: A0 V = V S *)
Lemma AV_VS : forall (A0 V S : fmat),
  orth V -> meq (mmul (mT V) (mmul A0 V)) S ->
  forall i k, (i < 4)%nat -> (k < 4)%nat -> mmul A0 V i k = mmul V S i k.
Proof.
  intros A0 V S [V1 V2] HS i k Hi Hk.
  transitivity (mmul (mmul V (mT V)) (mmul A0 V) i k).
  - unfold mmul at 2. rewrite !(V2 i) by lia. unfold mI.
    idx4 i Hi; cbn [Nat.eqb]; ring.
  - transitivity (sum4 (fun m => V i m * mmul (mT V) (mmul A0 V) m k)).
    + unfold sum4, mmul, mT. ring.
    + unfold sum4. rewrite !HS by lia. unfold mmul. ring.
Qed.

(* for S = D diagonal the columns of V are eigenvectors *)
Lemma eigen_columns : forall (A0 V : fmat) (d : nat -> R),
  orth V -> meq (mmul (mT V) (mmul A0 V)) (mdiag d) ->
  forall i k, (i < 4)%nat -> (k < 4)%nat -> mmul A0 V i k = d k * V i k.
Proof.
  intros A0 V d HO HD i k Hi Hk. rewrite (AV_VS A0 V (mdiag d) HO HD i k Hi Hk).
  unfold mmul, mdiag. idx4 k Hk; cbn [Nat.eqb]; ring.
Qed.

(* spectral form of the quadratic form: r^T A0 r = sum_k d_k y_k^2, |y| = |r|, y = V^T r *)
Definition ycoord (V : fmat) (r : nat -> R) : nat -> R := fun k => sum4 (fun i => V i k * r i).

Lemma ycoord_n2 : forall (V : fmat) (r : nat -> R), meq (mmul V (mT V)) mI -> n2 (ycoord V r) = n2 r.
Proof.
  intros V r V2.
  transitivity (sum4 (fun i => sum4 (fun j => r i * r j * mmul V (mT V) i j))).
  - unfold n2, ycoord, sum4, mmul, mT. ring.
  - unfold sum4. rewrite !V2 by lia. unfold n2, sum4, mI. cbn [Nat.eqb]. ring.
Qed.

(* A0 = A0 (V V^T) = (A0 V) V^T = V D V^T *)
Lemma spectral_decomposition : forall (A0 V : fmat) (d : nat -> R),
  orth V -> meq (mmul (mT V) (mmul A0 V)) (mdiag d) ->
  forall i j, (i < 4)%nat -> (j < 4)%nat -> A0 i j = sum4 (fun k => d k * V i k * V j k).
Proof.
  intros A0 V d HO HD i j Hi Hj.
  assert (E := eigen_columns A0 V d HO HD).
  rewrite <- (mmul_I_r A0 i j Hi Hj), <- (mmul_meq A0 A0 _ _ (meq_refl A0) (proj2 HO) i j Hi Hj), <- mmul_assoc.
  unfold mmul at 1. rewrite !E by lia. unfold sum4, mT. ring.
Qed.

Lemma qf_spectral : forall (A0 V : fmat) (d r : nat -> R),
  orth V -> meq (mmul (mT V) (mmul A0 V)) (mdiag d) ->
  qf A0 r = sum4 (fun k => d k * (ycoord V r k * ycoord V r k)).
Proof.
  intros A0 V d r HO HD. unfold qf, sum4.
  rewrite !(spectral_decomposition A0 V d HO HD) by lia. unfold ycoord, sum4. ring.
Qed.

(* Rayleigh bound: for every r, r^T A0 r <= M |r|^2 for any upper bound M of the d_k *)
Lemma qf_le_max : forall (A0 V : fmat) (d r : nat -> R) (M : R),
  orth V -> meq (mmul (mT V) (mmul A0 V)) (mdiag d) ->
  (forall k, (k < 4)%nat -> d k <= M) -> qf A0 r <= M * n2 r.
Proof.
  intros A0 V d r M HO HD HM.
  rewrite (qf_spectral A0 V d r HO HD), <- (ycoord_n2 V r (proj2 HO)).
  set (y := ycoord V r). unfold n2, sum4.
  assert (P : forall k, (k < 4)%nat -> 0 <= (M - d k) * (y k * y k)).
  { intros k Hk. apply Rmult_le_pos; [ specialize (HM k Hk); lra | ].
    generalize (Rle_0_sqr (y k)). unfold Rsqr. lra. }
  generalize (P 0%nat ltac:(lia)) (P 1%nat ltac:(lia)) (P 2%nat ltac:(lia)) (P 3%nat ltac:(lia)).
  generalize (y 0%nat) (y 1%nat) (y 2%nat) (y 3%nat). intros. lra.
Qed.

(* a column of V: unit, and its quadratic form is d_k *)
Lemma qf_column : forall (A0 V : fmat) (d : nat -> R) (k : nat),
  orth V -> meq (mmul (mT V) (mmul A0 V)) (mdiag d) -> (k < 4)%nat ->
  n2 (fun i => V i k) = 1 /\ qf A0 (fun i => V i k) = d k.
Proof.
  intros A0 V d k [V1 V2] HD Hk. split.
  - transitivity (mmul (mT V) V k k); [ unfold n2, sum4, mmul, mT; ring | ].
    rewrite V1 by exact Hk. unfold mI. rewrite Nat.eqb_refl. reflexivity.
  - transitivity (mmul (mT V) (mmul A0 V) k k); [ unfold qf, sum4, mmul, mT; ring | ].
    rewrite HD by exact Hk. unfold mdiag. rewrite Nat.eqb_refl. reflexivity.
Qed.

(* the selection sort of jacobi: step j exchanges entry and column j with those
   of a minimal remaining entry k (jsort_step_spec); [exch j k] acts on indices *)
Definition exch (j k c : nat) : nat := if (c =? j)%nat then k else if (c =? k)%nat then j else c.

Lemma exch_lt : forall j k c, (j < 4 -> k < 4 -> c < 4 -> exch j k c < 4)%nat.
Proof. intros j k c Hj Hk Hc. unfold exch. destruct (c =? j)%nat; [ exact Hk | destruct (c =? k)%nat; assumption ]. Qed.

Lemma exch_invol : forall j k c, exch j k (exch j k c) = c.
Proof.
  intros j k c. unfold exch.
  destruct (Nat.eqb_spec c j) as [-> | Hj].
  - destruct (Nat.eqb_spec k j) as [E | _]; [ exact E | ]. rewrite Nat.eqb_refl. reflexivity.
  - destruct (Nat.eqb_spec c k) as [-> | Hk].
    + rewrite Nat.eqb_refl. reflexivity.
    + destruct (Nat.eqb_spec c j); [ contradiction | ]. destruct (Nat.eqb_spec c k); [ contradiction | reflexivity ].
Qed.

Lemma argmin_fold : forall (e : nat -> R) (l : list nat) (k0 : nat),
  exists k, fold_left (fun kd i => if Rltb (e i) (snd kd) then (i, e i) else kd) l (k0, e k0) = (k, e k)
    /\ In k (k0 :: l) /\ forall i, In i (k0 :: l) -> e k <= e i.
Proof.
  intros e l. induction l as [| i t IH]; intro k0; cbn [fold_left snd].
  - exists k0. split; [ reflexivity | ]. split; [ left; reflexivity | ]. intros i [<- | []]. apply Rle_refl.
  - unfold Rltb at 2. destruct (Rlt_dec (e i) (e k0)) as [Hlt | Hge];
      [ destruct (IH i) as (k & E & Hin & Hmin) | destruct (IH k0) as (k & E & Hin & Hmin) ];
      exists k; (split; [ exact E | ]); split.
    + destruct Hin as [<- | Hin]; [ right; left; reflexivity | right; right; exact Hin ].
    + intros x [<- | [<- | Hx]]; [ specialize (Hmin i (or_introl eq_refl)); lra | apply Hmin; left; reflexivity | apply Hmin; right; exact Hx ].
    + destruct Hin as [<- | Hin]; [ left; reflexivity | right; right; exact Hin ].
    + intros x [<- | [<- | Hx]]; [ apply Hmin; left; reflexivity | specialize (Hmin k0 (or_introl eq_refl)); lra | apply Hmin; right; exact Hx ].
Qed.

Lemma exch_cols : forall (v : fmat) (j k : nat), (j < 4)%nat -> (k < 4)%nat ->
  fold_left (fun vm i => mset (mset vm i k (mget RA vm i j)) i j (mget RA vm i k)) (seq 0 4) (tab4 v)
  = tab4 (fun r c => v r (exch j k c)).
Proof. intros v j k Hj Hk. idx4 j Hj; idx4 k Hk; reflexivity. Qed.

Lemma exch_entries : forall (d : nat -> R) (j k : nat), (j < 4)%nat -> (k < 4)%nat ->
  vset (vset (tabv d) k (d j)) j (d k) = tabv (fun c => d (exch j k c)).
Proof. intros d j k Hj Hk. idx4 j Hj; idx4 k Hk; reflexivity. Qed.

Lemma jsort_step_spec : forall (v : fmat) (d : nat -> R) (j : nat), (j < 4)%nat ->
  exists k, (j <= k < 4)%nat /\ (forall i, (j <= i < 4)%nat -> d k <= d i) /\
    jsort_step RA (tab4 v, tabv d) j = (tab4 (fun r c => v r (exch j k c)), tabv (fun c => d (exch j k c))).
Proof.
  intros v d j Hj. unfold jsort_step.
  destruct (argmin_fold (vget RA (tabv d)) (seq (S j) (4 - S j)) j) as (k & E & Hin & Hmin).
  change (a_ltb R RA) with Rltb. rewrite E. clear E.
  assert (Hk : (j <= k < 4)%nat).
  { destruct Hin as [<- | Hin]; [ lia | apply in_seq in Hin; lia ]. }
  assert (Hseq : forall i, (j <= i < 4)%nat -> In i (j :: seq (S j) (4 - S j))).
  { intros i Hi. destruct (Nat.eq_dec j i) as [-> | Hne]; [ left; reflexivity | right; apply in_seq; lia ]. }
  exists k. split; [ exact Hk | ]. split.
  - intros i Hi. rewrite <- (vget_tabv d k), <- (vget_tabv d i) by lia. apply Hmin, Hseq, Hi.
  - rewrite !vget_tabv by lia. destruct (Nat.ltb_spec j k) as [Hlt | Hge].
    + rewrite exch_cols, exch_entries by lia. reflexivity.
    + assert (k = j) by lia. subst k. idx4 j Hj; reflexivity.
Qed.

(* the sort sorts: the returned dvec is the input read through a permutation
   of 0..3, ascending, and the columns of vmat are permuted alike *)
Theorem jsort_sorts : forall (m : nat), (m <= 3)%nat -> forall (v : fmat) (d : nat -> R),
  exists sg : nat -> nat,
    (forall c, (c < 4)%nat -> (sg c < 4)%nat) /\
    (forall i, (i < 4)%nat -> exists c, (c < 4)%nat /\ sg c = i) /\
    (forall c i, (c < m)%nat -> (c <= i < 4)%nat -> d (sg c) <= d (sg i)) /\
    fold_left (jsort_step RA) (seq 0 m) (tab4 v, tabv d)
    = (tab4 (fun r c => v r (sg c)), tabv (fun c => d (sg c))).
Proof.
  induction m as [| m IH]; intros Hm v d.
  - exists (fun c => c). split; [ intros c Hc; exact Hc | ]. split; [ intros i Hi; exists i; split; [ exact Hi | reflexivity ] | ].
    split; [ intros c i Hc; lia | reflexivity ].
  - destruct (IH ltac:(lia) v d) as (sg & Hlt & Hsurj & Hord & E).
    rewrite seq_S, fold_left_app, E. cbn [fold_left Nat.add].
    destruct (jsort_step_spec (fun r c => v r (sg c)) (fun c => d (sg c)) m ltac:(lia)) as (k & Hk & Hmin & E').
    rewrite E'. exists (fun c => sg (exch m k c)).
    split; [ intros c Hc; apply Hlt, exch_lt; lia | ].
    split.
    { intros i Hi. destruct (Hsurj i Hi) as (c & Hc & <-). exists (exch m k c).
      split; [ apply exch_lt; lia | rewrite exch_invol; reflexivity ]. }
    split; [ | reflexivity ].
    intros c i Hc Hi.
    assert (Hi' : (c <= exch m k i < 4)%nat /\ (m <= i -> m <= exch m k i)%nat).
    { unfold exch. destruct (i =? m)%nat eqn:E1; [ lia | ]. destruct (i =? k)%nat eqn:E2; [ apply Nat.eqb_eq in E2 | ]; lia. }
    destruct (Nat.eq_dec c m) as [-> | Hne].
    + unfold exch at 1. rewrite Nat.eqb_refl. apply Hmin. lia.
    + assert (Ec : exch m k c = c).
      { unfold exch. destruct (Nat.eqb_spec c m); [ lia | ]. destruct (Nat.eqb_spec c k); [ lia | reflexivity ]. }
      rewrite Ec. apply Hord; lia.
Qed.

Lemma jsort_spec : forall (v : fmat) (d : nat -> R),
  exists k, (k < 4)%nat /\ (forall i, (i < 4)%nat -> d i <= d k) /\
    (forall r, (r < 4)%nat -> mget RA (fst (fold_left (jsort_step RA) (seq 0 3) (tab4 v, tabv d))) r 3 = v r k) /\
    vget RA (snd (fold_left (jsort_step RA) (seq 0 3) (tab4 v, tabv d))) 3 = d k.
Proof.
  intros v d. destruct (jsort_sorts 3 (le_n 3) v d) as (sg & Hlt & Hsurj & Hord & E).
  rewrite E. cbn [fst snd]. exists (sg 3%nat).
  split; [ apply Hlt; lia | ]. split.
  - intros i Hi. destruct (Hsurj i Hi) as (c & Hc & <-).
    destruct (Nat.eq_dec c 3) as [-> | Hne]; [ apply Rle_refl | apply Hord; lia ].
  - split; [ intros r Hr; rewrite mget_tab4 by lia | rewrite vget_tabv by lia ]; reflexivity.
Qed.
