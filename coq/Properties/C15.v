(* C15 - rigid-body fitting reproduces exact placements; rotating about a bond
   by theta turns the measured torsion from phi to phi + theta and keeps the
   distances to the axis atoms.  Over the real-number instance RArith of Model/Quatfit.v.

   [rot1 RA m v] is what quatfit.rotmol does to one point (the TRANSPOSE of m is
   applied); [eigen_contract defrel refrel q] = "q is a unit vector maximising q^T C q
   over unit vectors, C = the 4x4 matrix of qtrfit" is what jacobi is trusted to
   deliver (validated per call by the harness).
   Jacobi layer: [st_sym st] is the symmetric matrix the code maintains, diagonal = dvec,
   off-diagonal = STRICT UPPER triangle of amat (diagonal and lower triangle of amat are
   never read or written by the rotations).
   NOT proved: that the off-diagonal mass reaches the threshold within the 30
   sweeps (convergence), the effect of the non-zero threshold 1e-12 beyond the
   residual identity C15_jacobi_exit_residual, and rounding. *)
From Coq Require Import Reals List ZArith.
From PV Require Import Model.Quatfit Proofs.Quatfit Proofs.QuatfitJacobi Proofs.QuatfitExit.
Import ListNotations.
Local Open Scope R_scope.

(* never a mirror image, whatever unit vector the eigen-solver returns:
   U^T U = U U^T = I, det U = 1, dot and cross products are carried along *)
Theorem C15_q2mat_rotation : forall q : quat (A := R), qnorm2 RA q = 1 ->
  proper_rotation (q2mat RA q) /\
  (forall v w, dot3 RA (rot1 RA (q2mat RA q) v) (rot1 RA (q2mat RA q) w) = dot3 RA v w) /\
  (forall v w, rot1 RA (q2mat RA q) (cross3 RA v w)
               = cross3 RA (rot1 RA (q2mat RA q) v) (rot1 RA (q2mat RA q) w)).
Proof.
  intros q H. split; [ apply q2mat_rotation; exact H | ].
  split; intros v w; [ apply q2mat_preserves_dot | apply q2mat_preserves_cross ]; exact H.
Qed.

(* q^T C q = sum_i y_i . rotmol(q2mat q) x_i for the exact matrix entries of
   qtrfit and the exact indexing of rotmol (it ties the entries of qtrfit to the
   transposition convention of rotmol) *)
Theorem C15_rayleigh_identity : forall (defs refs : list (pt (A := R))) (q : quat (A := R)),
  rayleigh RA (cmat RA defs refs) q
  = lsum (fun xy => dot3 RA (snd xy) (rot1 RA (q2mat RA q) (fst xy))) (combine defs refs).
Proof. exact rayleigh_identity. Qed.

(* FULL statement: the structure atoms are a rotated (unit quaternion p) and
   translated (T) copy of >= 3 non-collinear template atoms; the eigen-solver
   meets its contract; then the fitted rotation equals that of p on every
   fitted point, and find_coordinates returns exactly T + R(p) atom *)
Theorem C15_fit_exact_image : forall (defs : list (pt (A := R))) (p : quat (A := R)) (T atom : pt (A := R)),
  qnorm2 RA p = 1 -> noncollinear defs ->
  let refs := map (rigid (q2mat RA p) T) defs in
  let defrel := snd (center RA defs) in
  let refrel := snd (center RA refs) in
  eigen_contract defrel refrel (qtrfit_quat RA NROT defrel refrel) ->
  (forall x, In x defrel ->
     rot1 RA (q2mat RA (qtrfit_quat RA NROT defrel refrel)) x = rot1 RA (q2mat RA p) x) /\
  find_coordinates RA (length defs) refs defs atom = Some (rigid (q2mat RA p) T atom).
Proof. exact fit_exact_image. Qed.

(* the contract hypothesis is satisfiable for every exact image: p itself is a
   unit maximiser, because the form at p exceeds the form at any unit r by half
   the summed squared distances between the two images of the fitted points
   (rayleigh_exact_gap) *)
Theorem C15_eigen_contract_satisfiable : forall (defs : list (pt (A := R))) (p : quat (A := R)) (T : pt (A := R)),
  qnorm2 RA p = 1 -> defs <> [] ->
  eigen_contract (snd (center RA defs)) (snd (center RA (map (rigid (q2mat RA p) T) defs))) p.
Proof. intros defs p T Hp _. apply eigen_contract_satisfiable; exact Hp. Qed.

(* the placed atom moves with the structure under any further proper rigid motion *)
Theorem C15_fit_equivariant : forall (defs : list (pt (A := R))) (p g : quat (A := R)) (T S atom : pt (A := R)),
  qnorm2 RA p = 1 -> qnorm2 RA g = 1 -> noncollinear defs ->
  let refs := map (rigid (q2mat RA p) T) defs in
  let refs' := map (rigid (q2mat RA g) S) refs in
  let defrel := snd (center RA defs) in
  eigen_contract defrel (snd (center RA refs)) (qtrfit_quat RA NROT defrel (snd (center RA refs))) ->
  eigen_contract defrel (snd (center RA refs')) (qtrfit_quat RA NROT defrel (snd (center RA refs'))) ->
  exists r, find_coordinates RA (length defs) refs defs atom = Some r /\
            find_coordinates RA (length defs) refs' defs atom = Some (rigid (q2mat RA g) S r).
Proof. exact fit_equivariant. Qed.

(* qchichange maps every list element by one map that fixes the axis line
   pointwise (no condition on c, s) *)
Theorem C15_chi_axis_fixed : forall (c s : R) (init : pt (A := R)) (coords : list (pt (A := R))) (t : R),
  dot3 RA init init <> 0 ->
  qchichange RA c s init coords = map (chi_map c s init) coords /\
  chi_map c s init (scale t init) = scale t init /\
  (forall l : pt (A := R), dot3 RA l l = 1 -> rot1 RA (chi_mat RA l c s) (scale t l) = scale t l).
Proof.
  intros c s init coords t Hne. split; [ reflexivity | ].
  split; [ apply chi_map_axis_fixed; exact Hne | intros l Hl; apply rot_fixes_axis; exact Hl ].
Qed.

(* ... and with c^2 + s^2 = 1 it is a proper rotation: all distances between
   moved points and from a moved point to any point of the axis are kept *)
Theorem C15_chi_isometry : forall (c s : R) (init v w : pt (A := R)) (t : R),
  dot3 RA init init <> 0 -> c * c + s * s = 1 ->
  dist2 (chi_map c s init v) (chi_map c s init w) = dist2 v w /\
  dist2 (chi_map c s init v) (scale t init) = dist2 v (scale t init) /\
  proper_rotation (chi_mat RA (normalize RA init) c s) /\
  chi_map c s init (cross3 RA v w) = cross3 RA (chi_map c s init v) (chi_map c s init w).
Proof.
  intros c s init v w t Hne Hcs.
  assert (Hl := normalize_unit init Hne).
  split; [ apply chi_map_isometry; assumption | ].
  split; [ apply chi_map_axis_dist; assumption | ].
  split; [ apply chi_rotation; assumption | apply chi_preserves_cross; assumption ].
Qed.

(* Debump.set_dihedral_angle / Residue.rotate_tetrahedral (origin o = 2nd
   dihedral atom, a = 3rd): distances of a moved atom to both axis atoms, to
   every point of the axis and to every other moved atom are unchanged *)
Theorem C15_set_dihedral_distances : forall (c s : R) (o a p p' : pt (A := R)) (t : R),
  dot3 RA (psub RA a o) (psub RA a o) <> 0 -> c * c + s * s = 1 ->
  dist2 (rotate_about RA c s o a p) o = dist2 p o /\
  dist2 (rotate_about RA c s o a p) a = dist2 p a /\
  dist2 (rotate_about RA c s o a p) (padd RA (scale t (psub RA a o)) o)
    = dist2 p (padd RA (scale t (psub RA a o)) o) /\
  dist2 (rotate_about RA c s o a p) (rotate_about RA c s o a p') = dist2 p p'.
Proof. exact set_dihedral_distances. Qed.

(* torsion addition with the code's sign conventions: cos(phi) = scal,
   sin(phi) = chiral/|p3-p2| as computed by utilities.dihedral (its value is
   sign(chiral)*acos(scal)); after rotating p4 about p2->p3 by (c, s) as
   set_dihedral_angle does, (cos, sin) of the measured torsion are those of
   phi + theta, and (scal, chiral/L) lies on the unit circle *)
Theorem C15_torsion_addition : forall (p1 p2 p3 p4 : pt (A := R)) (c s : R),
  c * c + s * s = 1 ->
  dot3 RA (tors_n1 p1 p2 p3) (tors_n1 p1 p2 p3) <> 0 ->
  dot3 RA (tors_n2 p2 p3 p4) (tors_n2 p2 p3 p4) <> 0 ->
  let p4' := rotate_about RA c s p2 p3 p4 in
  let L := norm3 RA (psub RA p3 p2) in
  let cs := dihedral_sc RA p1 p2 p3 p4 in
  let cs' := dihedral_sc RA p1 p2 p3 p4' in
  fst cs' = c * fst cs - s * (snd cs / L) /\
  snd cs' / L = s * fst cs + c * (snd cs / L) /\
  fst cs * fst cs + (snd cs / L) * (snd cs / L) = 1.
Proof. exact torsion_addition. Qed.

Theorem C15_torsion_addition_angles : forall (p1 p2 p3 p4 : pt (A := R)) (phi theta : R),
  dot3 RA (tors_n1 p1 p2 p3) (tors_n1 p1 p2 p3) <> 0 ->
  dot3 RA (tors_n2 p2 p3 p4) (tors_n2 p2 p3 p4) <> 0 ->
  let L := norm3 RA (psub RA p3 p2) in
  fst (dihedral_sc RA p1 p2 p3 p4) = cos phi ->
  snd (dihedral_sc RA p1 p2 p3 p4) / L = sin phi ->
  let p4' := rotate_about RA (cos theta) (sin theta) p2 p3 p4 in
  fst (dihedral_sc RA p1 p2 p3 p4') = cos (phi + theta) /\
  snd (dihedral_sc RA p1 p2 p3 p4') / L = sin (phi + theta).
Proof. exact torsion_addition_angles. Qed.

(* rebuild_tetrahedral: rotation by +-120 degrees about the bond *)
Theorem C15_tetra_120 : forall (l v : pt (A := R)) (c s : R),
  dot3 RA l l = 1 -> c = - (1 / 2) -> s * s = 3 / 4 ->
  let v' := rot1 RA (chi_mat RA l c s) v in
  let rho2 := dot3 RA v v - dot3 RA l v * dot3 RA l v in
  dot3 RA v' v' = dot3 RA v v /\
  dot3 RA l v' = dot3 RA l v /\
  (forall t, dist2 v' (scale t l) = dist2 v (scale t l)) /\
  dist2 v' v = 3 * rho2.
Proof. exact tetra_120. Qed.

(* over R the code's (cscl, sscl) lies on the unit circle and is the EXACT
   annihilating angle for every input with bscl <> 0 (the shortcut branch
   `abs(dma) + abs(bscl) <= abs(dma)` is dead over R) *)
Theorem C15_jacobi_angle_exact : forall b dp dq : R, b <> 0 ->
  let cs := jcs b (dq - dp) in
  let c := fst cs in let s := snd cs in
  c * c + s * s = 1 /\ c * s * (dp - dq) + (c * c - s * s) * b = 0.
Proof. exact jcs_exact. Qed.

(* one rotation of the model (both branches of `if abs(amat[ip][iq]) > 0.0`)
   is an orthogonal similarity: A' = J^T A J on [st_sym], V' = V J, the pivot
   entry of A' is 0, the sum of the squared diagonal entries gains 2 a_pq^2, the
   diagonal/lower triangle of amat is a frame (never written) *)
Theorem C15_jacobi_rotation_similarity : forall (st : jstate (A := R)) (p q : nat),
  wfst st -> In (p, q) pairs ->
  let st' := jrot RA st (p, q) in
  wfst st' /\
  exists c s : R,
    c * c + s * s = 1 /\
    meq (st_sym st') (mmul (mT (planeJ c s p q)) (mmul (st_sym st) (planeJ c s p q))) /\
    meq (st_V st') (mmul (st_V st) (planeJ c s p q)) /\
    st_sym st' p q = 0 /\
    sum4 (fun i => st_sym st' i i * st_sym st' i i)
      = sum4 (fun i => st_sym st i i * st_sym st i i) + 2 * (st_sym st p q * st_sym st p q) /\
    (forall i j, (i < 4)%nat -> (j <= i)%nat -> mget RA (fst (fst st')) i j = mget RA (fst (fst st)) i j).
Proof. exact jrot_similarity. Qed.

(* the plane rotation is orthogonal: J^T J = J J^T = I *)
Theorem C15_jacobi_plane_orthogonal : forall (c s : R) (p q : nat),
  In (p, q) pairs -> c * c + s * s = 1 -> orth (planeJ c s p q).
Proof. exact planeJ_orth. Qed.

(* trace and Frobenius norm are kept, the off-diagonal mass (sum over i <> j)
   drops by 2 a_pq^2: the classical Jacobi identity *)
Theorem C15_jacobi_rotation_masses : forall (st : jstate (A := R)) (p q : nat),
  wfst st -> In (p, q) pairs ->
  let st' := jrot RA st (p, q) in
  trace4 (st_sym st') = trace4 (st_sym st) /\
  frob2 (st_sym st') = frob2 (st_sym st) /\
  off2 (st_sym st') = off2 (st_sym st) - 2 * (st_sym st p q * st_sym st p q).
Proof. exact jrot_masses. Qed.

(* the invariant is kept by ANY sequence of pivots taken from the code's six
   pairs, and holds at every exit of the sweep loop, for every fuel value
   (converged, or fuel exhausted): V^T V = V V^T = I and V^T A0 V = A_current *)
Theorem C15_jacobi_invariant_any_pivots : forall (A0 : fmat) (l : list (nat * nat)) (st : jstate (A := R)),
  (forall ij, In ij l -> In ij pairs) -> jinv A0 st -> jinv A0 (fold_left (jrot RA) l st).
Proof. exact jinv_fold. Qed.

Theorem C15_jacobi_invariant : forall (am : mat (A := R)) (nrot : nat), wf4 am ->
  let st := jsweeps RA nrot (jinit RA am) in
  wfst st /\ orth (st_V st) /\
  meq (mmul (mT (st_V st)) (mmul (A0_of am) (st_V st))) (st_sym st).
Proof. exact jacobi_invariant. Qed.

(* exact exit: columns of V are eigenvectors; the column qtrfit takes after the
   ascending sort (column 3) is a unit eigenvector of the largest dvec entry and
   maximises r^T A0 r over all unit r *)
Theorem C15_jacobi_exit_exact : forall (am : mat (A := R)) (nrot : nat), wf4 am ->
  let A0 := A0_of am in
  let st := jsweeps RA nrot (jinit RA am) in
  offzero st ->
  let V := st_V st in
  let d := fun k => st_sym st k k in
  orth V /\
  (forall i k, (i < 4)%nat -> (k < 4)%nat -> mmul A0 V i k = d k * V i k) /\
  let res := jacobi RA am nrot in
  let q := fun i => mget RA (snd res) i 3 in
  let lam := vget RA (fst res) 3 in
  n2 q = 1 /\
  (forall i, (i < 4)%nat -> mv A0 q i = lam * q i) /\
  qf A0 q = lam /\
  (forall k, (k < 4)%nat -> d k <= lam) /\
  (forall r, n2 r = 1 -> qf A0 r <= qf A0 q).
Proof. exact jacobi_exit_exact. Qed.

(* the eigen-solver contract is a THEOREM for every call whose iteration stops
   with zero off-diagonal part *)
Theorem C15_jacobi_eigen_contract : forall (defrel refrel : list (pt (A := R))) (nrot : nat),
  offzero (jsweeps RA nrot (jinit RA (cm_rows RA (cmat RA defrel refrel)))) ->
  eigen_contract defrel refrel (qtrfit_quat RA nrot defrel refrel).
Proof. exact jacobi_eigen_contract. Qed.

(* C15_fit_exact_image with the contract hypothesis replaced by "jacobi stops
   with zero off-diagonal part" *)
Theorem C15_fit_exact_image_jacobi : forall (defs : list (pt (A := R))) (p : quat (A := R)) (T atom : pt (A := R)),
  qnorm2 RA p = 1 -> noncollinear defs ->
  let refs := map (rigid (q2mat RA p) T) defs in
  let defrel := snd (center RA defs) in
  let refrel := snd (center RA refs) in
  offzero (jsweeps RA NROT (jinit RA (cm_rows RA (cmat RA defrel refrel)))) ->
  (forall x, In x defrel ->
     rot1 RA (q2mat RA (qtrfit_quat RA NROT defrel refrel)) x = rot1 RA (q2mat RA p) x) /\
  find_coordinates RA (length defs) refs defs atom = Some (rigid (q2mat RA p) T atom).
Proof. exact fit_exact_image_jacobi. Qed.

(* inexact exit (any fuel, no hypothesis): column k of V misses being an
   eigenvector for S_kk by exactly the off-diagonal mass of column k of the
   current matrix S, which is at most half the total off-diagonal mass *)
Theorem C15_jacobi_exit_residual : forall (am : mat (A := R)) (nrot k : nat), wf4 am -> (k < 4)%nat ->
  let A0 := A0_of am in
  let st := jsweeps RA nrot (jinit RA am) in
  let V := st_V st in
  let S := st_sym st in
  sum4 (fun i => (mv A0 (fun j => V j k) i - S k k * V i k) * (mv A0 (fun j => V j k) i - S k k * V i k))
  = sum4 (fun m => if (m =? k)%nat then 0 else S m k * S m k)
  /\ 2 * sum4 (fun m => if (m =? k)%nat then 0 else S m k * S m k) <= off2 S.
Proof. exact jacobi_exit_residual. Qed.

(* non-vacuity of the exit hypothesis: 6-point template with diagonal second
   moments, turned by 180 degrees about x and translated by (10,-20,30): the
   qtrfit matrix has c00 = -24 and c11 = 28 (its diagonal is not in ascending
   order as it stands), the iteration stops with zero off-diagonal part, and
   the image of (1,2,3) is (11,-22,27) *)
Example C15_jacobi_nonvacuous :
  qnorm2 RA jex_p = 1 /\ noncollinear jex_defs /\
  (let refs := map (rigid (q2mat RA jex_p) jex_T) jex_defs in
   let defrel := snd (center RA jex_defs) in
   let refrel := snd (center RA refs) in
   offzero (jsweeps RA NROT (jinit RA (cm_rows RA (cmat RA defrel refrel)))) /\
   c11 (cmat RA defrel refrel) = 28 /\ c00 (cmat RA defrel refrel) = -24 /\
   find_coordinates RA 6 refs jex_defs (1, 2, 3) = Some (11, -22, 27)).
Proof. exact jacobi_nonvacuous. Qed.

(* non-vacuity: a 4-point template, the 120-degree rotation about (1,1,1) and a
   translation meet every hypothesis of C15_fit_exact_image (a unit maximiser
   exists), the image of (1,2,3) is (12,-17,31); qchichange by the angle with
   cos = 3/5, sin = 4/5 about the z axis takes (1,0,5) to (3/5,4/5,5) *)
Example C15_nonvacuous :
  qnorm2 RA ex_p = 1 /\ noncollinear ex_defs /\
  (exists q, eigen_contract (snd (center RA ex_defs))
               (snd (center RA (map (rigid (q2mat RA ex_p) ex_T) ex_defs))) q) /\
  rigid (q2mat RA ex_p) ex_T (1, 2, 3) = (12, -17, 31) /\
  (let c := 3 / 5 in let s := 4 / 5 in let init : pt (A := R) := (0, 0, 2) in
   c * c + s * s = 1 /\ dot3 RA init init <> 0 /\
   qchichange RA c s init ((1, 0, 5) :: nil) = ((3 / 5, 4 / 5, 5) :: nil)).
Proof. exact fit_nonvacuous. Qed.

Print Assumptions C15_q2mat_rotation.
Print Assumptions C15_rayleigh_identity.
Print Assumptions C15_fit_exact_image.
Print Assumptions C15_eigen_contract_satisfiable.
Print Assumptions C15_fit_equivariant.
Print Assumptions C15_chi_axis_fixed.
Print Assumptions C15_chi_isometry.
Print Assumptions C15_set_dihedral_distances.
Print Assumptions C15_torsion_addition.
Print Assumptions C15_torsion_addition_angles.
Print Assumptions C15_tetra_120.
Print Assumptions C15_nonvacuous.
Print Assumptions C15_jacobi_angle_exact.
Print Assumptions C15_jacobi_rotation_similarity.
Print Assumptions C15_jacobi_plane_orthogonal.
Print Assumptions C15_jacobi_rotation_masses.
Print Assumptions C15_jacobi_invariant_any_pivots.
Print Assumptions C15_jacobi_invariant.
Print Assumptions C15_jacobi_exit_exact.
Print Assumptions C15_jacobi_eigen_contract.
Print Assumptions C15_fit_exact_image_jacobi.
Print Assumptions C15_jacobi_exit_residual.
Print Assumptions C15_jacobi_nonvacuous.
