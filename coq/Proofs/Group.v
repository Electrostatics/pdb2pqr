(* C07, record level: Biomolecule.__init__ keeps exactly the first-listed
   record of every identity of the first model (under the stated guards). *)
From Coq Require Import String Ascii List Arith NArith ZArith Bool Lia Permutation.
From PV Require Import Lib.Lists Lib.Strings Lib.Decimal Model.PdbRead Model.Group Model.PdbSpec Proofs.PdbRead.
Import ListNotations.
Local Open Scope string_scope.
Local Open Scope list_scope.

Section KeepFirst.
  Context {A : Type}.

  (* [eq new old] *)
  Fixpoint keep_first (eq : A -> A -> bool) (seen l : list A) : list A :=
    match l with
    | [] => []
    | a :: r =>
        if existsb (eq a) seen then keep_first eq seen r else a :: keep_first eq (a :: seen) r
    end.

  Lemma kf_agree eq1 eq2 l : forall seen,
    (forall a b, In a (seen ++ l) -> In b (seen ++ l) -> eq1 a b = eq2 a b) ->
    keep_first eq1 seen l = keep_first eq2 seen l.
  Proof.
    induction l as [|a r IH]; intros seen H; simpl; [reflexivity|].
    assert (E : existsb (eq1 a) seen = existsb (eq2 a) seen).
    { apply existsb_ext_in. intros x Hx. apply H; rewrite in_app_iff; simpl; tauto. }
    rewrite E. destruct (existsb (eq2 a) seen); [|f_equal];
      apply IH; intros x y Hx Hy; apply H; rewrite in_app_iff in *; simpl in *; tauto.
  Qed.

  Lemma kf_seen_ext eq l : forall S1 S2,
    (forall x, In x l -> existsb (eq x) S1 = existsb (eq x) S2) ->
    keep_first eq S1 l = keep_first eq S2 l.
  Proof.
    induction l as [|a r IH]; intros S1 S2 H; simpl; [reflexivity|].
    rewrite (H a (or_introl eq_refl)).
    destruct (existsb (eq a) S2); [|f_equal]; apply IH; intros x Hx; simpl;
      rewrite (H x (or_intror Hx)); reflexivity.
  Qed.

  Lemma kf_app eq l1 l2 : forall seen,
    keep_first eq seen (l1 ++ l2) =
    keep_first eq seen l1 ++ keep_first eq (rev (keep_first eq seen l1) ++ seen) l2.
  Proof.
    induction l1 as [|a l1 IH]; intros seen; simpl; [reflexivity|].
    destruct (existsb (eq a) seen); [apply IH|].
    simpl. f_equal. rewrite IH. f_equal. rewrite <- app_assoc. reflexivity.
  Qed.

  Lemma kf_drop_seen eq S l1 a l2 :
    existsb (eq a) S = true -> keep_first eq S (l1 ++ a :: l2) = keep_first eq S (l1 ++ l2).
  Proof.
    intros H. rewrite !kf_app. f_equal. simpl.
    rewrite existsb_app, H, orb_true_r. reflexivity.
  Qed.

  (* an equality test that decides equality of a key *)
  Section Keyed.
    Variable K : Type.
    Variable key : A -> K.
    Variable eq : A -> A -> bool.
    Hypothesis eq_key : forall a b, eq a b = true <-> key a = key b.

    Lemma existsb_key x L : existsb (eq x) L = true <-> In (key x) (map key L).
    Proof.
      induction L as [|s L IH]; simpl; [split; [discriminate | tauto]|].
      rewrite orb_true_iff, IH, eq_key. split; intros [H|H]; auto.
    Qed.

    Lemma kf_keys l : forall S k,
      In k (map key (keep_first eq S l)) \/ In k (map key S) <-> In k (map key l) \/ In k (map key S).
    Proof.
      induction l as [|a r IH]; intros S k; simpl; [tauto|].
      destruct (existsb (eq a) S) eqn:E.
      - apply existsb_key in E. rewrite IH. split; [tauto|].
        intros [[H|H]|H]; [subst k; right; exact E | tauto | tauto].
      - simpl. rewrite !(or_comm (key a = k)), !or_assoc. apply (IH (a :: S) k).
    Qed.

    (* the kept elements carry the same keys as the list *)
    Lemma kf_existsb x S l :
      existsb (eq x) (rev (keep_first eq S l) ++ S) = existsb (eq x) (S ++ l).
    Proof.
      apply eq_true_iff_eq. rewrite !existsb_key, !map_app, map_rev, !in_app_iff, <- in_rev.
      rewrite (kf_keys l S (key x)). tauto.
    Qed.
  End Keyed.

  Lemma kf_subset eq l : forall seen x, In x (keep_first eq seen l) -> In x l.
  Proof.
    induction l as [|a r IH]; intros seen x; simpl; [tauto|].
    destruct (existsb (eq a) seen); [intros H; right; eapply IH; exact H|].
    intros [H|H]; [left; exact H | right; eapply IH; exact H].
  Qed.
End KeepFirst.

Lemma kf_map {A B} (f : B -> A) (eqA : A -> A -> bool) (eqB : B -> B -> bool) l :
  (forall x y, eqB x y = eqA (f x) (f y)) ->
  forall seen, map f (keep_first eqB seen l) = keep_first eqA (map f seen) (map f l).
Proof.
  intros H. induction l as [|a r IH]; intros seen; simpl; [reflexivity|].
  assert (E : existsb (eqA (f a)) (map f seen) = existsb (eqB a) seen).
  { clear IH. induction seen as [|s seen IHs]; simpl; [reflexivity|]. rewrite H, IHs. reflexivity. }
  rewrite E. destruct (existsb (eqB a) seen); [apply IH|].
  simpl. f_equal. apply (IH (a :: seen)).
Qed.

Lemma last_atom_nil : last_atom [] = None. Proof. reflexivity. Qed.

Lemma last_atom_snoc l a : last_atom (l ++ [a]) = Some a.
Proof. unfold last_atom. rewrite map_app. simpl. apply last_last. Qed.

Lemma last_atom_some l : l <> [] -> exists p, last_atom l = Some p /\ In p l.
Proof.
  intros H. destruct (exists_last H) as [l' [a E]]. subst l. exists a.
  split; [apply last_atom_snoc | apply in_or_app; right; left; reflexivity].
Qed.

Lemma last_atom_none l : last_atom l = None -> l = [].
Proof.
  intros H. destruct l as [|a l]; [reflexivity|].
  destruct (last_atom_some (a :: l)) as [p [E _]]; [discriminate|]. rewrite E in H. discriminate.
Qed.

Lemma is_nil_true {A} (l : list A) : is_nil l = true <-> l = [].
Proof. destruct l; simpl; split; intros H; try reflexivity; discriminate. Qed.

Lemma is_nil_false {A} (l : list A) : is_nil l = false <-> l <> [].
Proof. destruct l; simpl; split; intros H; try discriminate; try reflexivity. contradiction. Qed.

Lemma same_key_spec a b :
  same_key a b = true <->
  a_resseq a = a_resseq b /\ a_icode a = a_icode b /\ a_chain a = a_chain b.
Proof.
  unfold same_key. rewrite !andb_true_iff, Z.eqb_eq, !String.eqb_eq. tauto.
Qed.

Lemma same_key_refl a : same_key a a = true.
Proof. apply same_key_spec. auto. Qed.

Lemma same_key_sym a b : same_key a b = true -> same_key b a = true.
Proof. rewrite !same_key_spec. intuition congruence. Qed.

Lemma same_key_trans a b c : same_key a b = true -> same_key b c = true -> same_key a c = true.
Proof. rewrite !same_key_spec. intuition congruence. Qed.
Definition name_eq (a b : atomrec) : bool := a_name a =? a_name b.

Lemma same_id_split a b : same_id a b = same_key a b && name_eq a b.
Proof. reflexivity. Qed.

Definition idk (a : atomrec) := (a_resseq a, a_icode a, a_chain a, a_name a).

Lemma same_id_key a b : same_id a b = true <-> idk a = idk b.
Proof.
  unfold same_id, same_key, idk. rewrite !andb_true_iff, Z.eqb_eq, !String.eqb_eq.
  split; [intros [[[H1 H2] H3] H4]; congruence | intros H; injection H; auto].
Qed.

Lemma same_id_ident a b : same_id a b = same_ident a b.
Proof.
  unfold same_id, same_key, same_ident, rident, ident_eqb.
  destruct (a_resseq a =? a_resseq b)%Z, (a_icode a =? a_icode b), (a_chain a =? a_chain b),
    (a_name a =? a_name b); reflexivity.
Qed.

Lemma same_ident_key a b : same_key a b = true -> same_ident a b = name_eq a b.
Proof. intros H. rewrite <- same_id_ident, same_id_split, H. reflexivity. Qed.

Lemma mem_str_map x S : mem_str (a_name x) (map a_name S) = existsb (name_eq x) S.
Proof. induction S as [|s S IH]; simpl; [reflexivity|]. rewrite IH. reflexivity. Qed.

Lemma implb_true a b : implb a b = true -> a = true -> b = true.
Proof. destruct a, b; simpl; auto. Qed.

Definition chain_res (chs : list (string * list resid)) : list resid := flat_map snd chs.

Lemma add_res_perm k r chs : Permutation (chain_res (add_res k r chs)) (r :: chain_res chs).
Proof.
  induction chs as [|[k' rs] t IH]; simpl; [apply Permutation_refl|].
  destruct (k =? k'); simpl.
  - rewrite <- app_assoc. simpl. apply Permutation_sym, Permutation_middle.
  - eapply Permutation_trans; [apply Permutation_app_head; exact IH|].
    apply Permutation_sym, Permutation_middle.
Qed.

Lemma ensure_chain_res k chs : chain_res (ensure_chain k chs) = chain_res chs.
Proof.
  unfold ensure_chain, chain_res. destruct (has_key k chs); [reflexivity|].
  rewrite flat_map_app. simpl. apply app_nil_r.
Qed.

Lemma insert_chain_perm c l : Permutation (insert_chain c l) (c :: l).
Proof.
  induction l as [|d t IH]; simpl; [apply Permutation_refl|].
  destruct (String.ltb (sort_key (fst c)) (sort_key (fst d))); [apply Permutation_refl|].
  eapply Permutation_trans; [apply perm_skip; exact IH | apply perm_swap].
Qed.

Lemma sort_chains_perm l : Permutation (sort_chains l) l.
Proof.
  induction l as [|c l IH]; simpl; [constructor|].
  eapply Permutation_trans; [apply insert_chain_perm | apply perm_skip; exact IH].
Qed.

(* the records in front of the second MODEL record *)
Fixpoint fm (nm : nat) (recs : list rec) : list rec :=
  match recs with
  | [] => []
  | RModel :: r => if (1 <=? nm)%nat then [] else RModel :: fm (S nm) r
  | x :: r => x :: fm nm r
  end.

Lemma fm_cons nm r l : r <> RModel -> fm nm (r :: l) = r :: fm nm l.
Proof. destruct r; [reflexivity .. | intros H; destruct (H eq_refl)]. Qed.

Lemma fm_app_nomodel nm l r : ~ In RModel l -> fm nm (l ++ r) = l ++ fm nm r.
Proof.
  induction l as [|x l IH]; intros H; [reflexivity|]. cbn [app].
  rewrite !fm_cons, IH by (intros E; apply H; simpl; auto). reflexivity.
Qed.

Lemma count_ter_cons r l :
  count_ter (r :: l) = (match r with RTer => 1 | _ => 0 end) + count_ter l.
Proof. unfold count_ter. simpl. destruct r; reflexivity. Qed.

Lemma count_ter_fm nm recs : count_ter (fm nm recs) <= count_ter recs.
Proof.
  revert nm; induction recs as [|r l IH]; intros nm; [apply Nat.le_refl|].
  destruct r; cbn [fm]; rewrite ?count_ter_cons; try (specialize (IH nm); lia).
  destruct (1 <=? nm)%nat; [unfold count_ter; simpl; lia|].
  rewrite !count_ter_cons. specialize (IH (S nm)). lia.
Qed.

Lemma atoms_of_app l1 l2 : atoms_of (l1 ++ l2) = atoms_of l1 ++ atoms_of l2.
Proof.
  induction l1 as [|x l1 IH]; simpl; [reflexivity|]. destruct x; simpl; rewrite IH; reflexivity.
Qed.

Lemma drop_water_app l1 l2 : drop_water (l1 ++ l2) = drop_water l1 ++ drop_water l2.
Proof. unfold drop_water. apply filter_app. Qed.

Definition rec_inert (nch : nat) (r : rec) : bool :=
  match r with
  | RAtom a => negb ((a_chain a =? "") && (1 <? nch)%nat && negb (mem_str (a_resname a) ["WAT"; "HOH"]))
  | _ => true
  end.

Lemma inert_rec_inert recs nch :
  (count_ter recs = 0 -> nch <= 1) ->
  inert recs = true -> forallb (rec_inert nch) recs = true.
Proof.
  unfold inert. intros Hn H. apply orb_true_iff in H as [H|H].
  - apply Nat.eqb_eq in H. specialize (Hn H).
    apply forallb_forall. intros [a| | |] _; try reflexivity. simpl.
    assert (E : (1 <? nch)%nat = false) by (apply Nat.ltb_ge; lia).
    rewrite E, andb_false_r. reflexivity.
  - clear Hn. induction recs as [|[a| | |] l IH]; simpl in *; try reflexivity; try (apply IH; exact H).
    apply andb_true_iff in H as [Ha Hl]. rewrite (IH Hl), andb_true_r.
    unfold unlettered in Ha. apply orb_true_iff in Ha as [Ha|Ha].
    + apply negb_true_iff in Ha. rewrite Ha. reflexivity.
    + simpl in Ha. rewrite Ha. simpl. rewrite andb_false_r. reflexivity.
Qed.

(* the state machine forms exactly the runs of [lsegs] *)

Section Loop.
  Variable tab : deftab.

  Definition mkres (seg : list atomrec) : resid :=
    match last_atom seg with
    | Some q => create_residue tab seg (a_resname q)
    | None => create_residue tab seg ""
    end.

  Definition pend_ok (st : gst) : Prop := g_res st <> [] -> g_prev st = last_atom (g_res st).

  Definition out (st : gst) (recs : list rec) : list resid :=
    chain_res (g_chains st) ++ map mkres (lsegs (g_placed st) (g_nm st) (g_res st) recs).

  Lemma flush_keeps st : g_nm (flush tab st) = g_nm st /\ g_placed (flush tab st) = g_placed st.
  Proof. unfold flush. destruct (g_prev st); split; reflexivity. Qed.

  Lemma flush_out st tl :
    pend_ok st -> g_res st <> [] ->
    Permutation (chain_res (g_chains (flush tab st)) ++ tl)
                (chain_res (g_chains st) ++ mkres (g_res st) :: tl).
  Proof.
    intros Hp Hne. unfold flush, mkres. rewrite (Hp Hne).
    destruct (last_atom_some _ Hne) as [q [-> _]]. cbn [g_chains].
    eapply Permutation_trans; [apply Permutation_app_tail, add_res_perm | apply Permutation_middle].
  Qed.

  (* END, the second MODEL record and the end of the list flush a pending run, if there is one *)
  Definition close (st : gst) : gst := if is_nil (g_res st) then st else flush tab st.

  Lemma close_keeps st : g_nm (close st) = g_nm st /\ g_placed (close st) = g_placed st.
  Proof. unfold close. destruct (is_nil (g_res st)); [split; reflexivity | apply flush_keeps]. Qed.

  Lemma close_out st segs :
    pend_ok st ->
    Permutation (chain_res (g_chains (close st)) ++ map mkres segs)
                (chain_res (g_chains st) ++ map mkres (cons_nel (g_res st) segs)).
  Proof.
    intros Hp. unfold close. destruct (g_res st) as [|x xs] eqn:E; [apply Permutation_refl|].
    cbn [is_nil cons_nel map]. rewrite <- E. apply flush_out; [exact Hp | rewrite E; discriminate].
  Qed.

  Lemma close_chains_nm st n :
    g_chains (close (mkG (g_prev st) (g_res st) n (g_count st) (g_chains st) (g_placed st))) =
    g_chains (close st).
  Proof.
    unfold close, flush. cbn [g_prev g_res g_chains g_count].
    destruct (is_nil (g_res st)), (g_prev st); reflexivity.
  Qed.

  Lemma gfinish_out st : pend_ok st -> Permutation (chain_res (g_chains (gfinish tab st))) (out st []).
  Proof.
    intros Hp. unfold gfinish, out. cbn [lsegs].
    destruct (negb (is_nil (g_res st)) && (g_nm st <=? 1)%nat) eqn:E.
    - apply andb_true_iff in E as [E _]. apply negb_true_iff, is_nil_false in E.
      rewrite <- (app_nil_r (chain_res _)). apply (flush_out st [] Hp E).
    - cbn [map]. rewrite app_nil_r. apply Permutation_refl.
  Qed.

  Lemma gstep_end nch free st : gstep tab nch free st REnd = GCont (clear_res (close (place st))).
  Proof.
    destruct st as [pv res nm c chs pl]. destruct res; [|reflexivity].
    unfold close, clear_res, place. cbn [gstep is_nil g_res g_placed]. rewrite app_nil_r. reflexivity.
  Qed.

  Lemma gstep_atom nch free st a :
    rec_inert nch (RAtom a) = true -> pend_ok st ->
    exists st', gstep tab nch free st (RAtom a) = GCont st' /\ pend_ok st' /\ g_nm st' = g_nm st /\
      forall rest, Permutation (out st' rest) (out st (RAtom a :: rest)).
  Proof.
    intros Hr Hp. cbn [rec_inert] in Hr. apply negb_true_iff in Hr.
    unfold out. cbn [gstep lsegs]. rewrite Hr.
    destruct (existsb (same_id a) (g_placed st)).
    { exists st. split; [reflexivity|]. split; [exact Hp|]. split; [reflexivity|].
      intros rest. apply Permutation_refl. }
    set (st1 := mkG (g_prev st) (g_res st) (g_nm st) (g_count st)
                    (ensure_chain (a_chain a) (g_chains st)) (g_placed st)).
    assert (C1 : chain_res (g_chains st1) = chain_res (g_chains st)) by apply ensure_chain_res.
    change (g_prev st1) with (g_prev st). change (g_res st1) with (g_res st).
    destruct (last_atom (g_res st)) as [q|] eqn:Eq.
    - assert (Hne : g_res st <> []) by (intros E; rewrite E in Eq; discriminate).
      rewrite (Hp Hne), Eq, (proj2 (is_nil_false _) Hne). cbn [negb andb].
      destruct (same_key a q); cbn [negb].
      + (* the record joins the pending run *)
        eexists; split; [reflexivity|]. cbn [g_res g_nm g_chains g_placed].
        split; [intros _; symmetry; apply last_atom_snoc|]. split; [reflexivity|].
        intros rest. rewrite C1. apply Permutation_refl.
      + (* another key: the pending run is closed *)
        destruct (flush_keeps (place st1)) as [F3 F5].
        eexists; split; [reflexivity|]. unfold clear_res. cbn [g_prev g_res g_nm g_chains g_placed app].
        split; [intros _; reflexivity|]. split; [exact F3|].
        intros rest. rewrite F3, F5, <- C1. apply (flush_out (place st1)); [exact Hp | exact Hne].
    - apply last_atom_none in Eq. rewrite Eq.
      assert (E2 : match g_prev st with
                   | Some q => if negb (is_nil (@nil atomrec)) && negb (same_key a q)
                               then clear_res (flush tab (place st1)) else st1
                   | None => st1 end = st1) by (destruct (g_prev st); reflexivity).
      rewrite E2. eexists; split; [reflexivity|]. unfold st1 in *. cbn [g_res g_nm g_chains g_placed] in *.
      rewrite Eq. split; [intros _; reflexivity|]. split; [reflexivity|].
      intros rest. rewrite C1. apply Permutation_refl.
  Qed.

  Lemma gstep_cont nch free st r :
    r <> RModel -> rec_inert nch r = true -> pend_ok st ->
    exists st', gstep tab nch free st r = GCont st' /\ pend_ok st' /\ g_nm st' = g_nm st /\
      forall rest, Permutation (out st' rest) (out st (r :: rest)).
  Proof.
    intros Hm Hr Hp. destruct r as [a| | |]; [apply gstep_atom; assumption | | | destruct (Hm eq_refl)].
    - (* TER is counted, nothing else *)
      eexists; split; [reflexivity|]. split; [exact Hp|]. split; [reflexivity|].
      intros rest. apply Permutation_refl.
    - exists (clear_res (close (place st))). split; [apply gstep_end|].
      destruct (close_keeps (place st)) as [F3 F5].
      split; [intros H; destruct (H eq_refl)|]. split; [exact F3|].
      intros rest. unfold out, clear_res. cbn [g_res g_nm g_chains g_placed lsegs]. rewrite F3, F5.
      apply (close_out (place st)). exact Hp.
  Qed.

  Lemma model_or_not (r : rec) : r = RModel \/ r <> RModel.
  Proof. destruct r; [right | right | right | left]; congruence. Qed.

  Lemma gloop_lsegs nch free recs : forall st,
    pend_ok st -> forallb (rec_inert nch) recs = true ->
    exists st', gloop tab nch free st recs = Some st' /\
      Permutation (chain_res (g_chains st'))
                  (chain_res (g_chains st) ++ map mkres (lsegs (g_placed st) (g_nm st) (g_res st) recs)).
  Proof.
    induction recs as [|r rest IH]; intros st Hp Hin.
    - exists (gfinish tab st). split; [reflexivity | apply gfinish_out; exact Hp].
    - cbn [forallb] in Hin. apply andb_true_iff in Hin as [Hr Hin]. cbn [gloop].
      destruct (model_or_not r) as [->|Hm].
      + cbn [gstep lsegs].
        set (st1 := mkG (g_prev st) (g_res st) (S (g_nm st)) (g_count st) (g_chains st) (g_placed st)).
        change (g_nm st1) with (S (g_nm st)). destruct (1 <? S (g_nm st))%nat.
        * (* the second MODEL record ends the loop *)
          exists (close st1). split; [reflexivity|].
          rewrite <- (app_nil_r (chain_res _)). apply (close_out st1 [] Hp).
        * exact (IH st1 Hp Hin).
      + destruct (gstep_cont nch free st r Hm Hr Hp) as [st1 [-> [Hp1 [_ S]]]].
        destruct (IH st1 Hp1 Hin) as [st' [G P]]. exists st'. split; [exact G|].
        exact (Permutation_trans P (S rest)).
  Qed.

  Lemma gstep_inert nch nch' fr fr' st r :
    rec_inert nch r = true -> rec_inert nch' r = true ->
    gstep tab nch fr st r = gstep tab nch' fr' st r.
  Proof.
    destruct r as [a| | |]; try reflexivity. cbn [rec_inert gstep]. intros H1 H2.
    apply negb_true_iff in H1, H2. rewrite H1, H2. reflexivity.
  Qed.

  (* the loop on the whole record list = the loop on the records in front of the
     second MODEL record, whatever is pending there (03143cb, C07-F3) *)
  Lemma gloop_fm nch nch' fr fr' recs : forall st,
    pend_ok st -> g_nm st <= 1 ->
    forallb (rec_inert nch) recs = true -> forallb (rec_inert nch') recs = true ->
    option_map g_chains (gloop tab nch fr st recs) =
    option_map g_chains (gloop tab nch' fr' st (fm (g_nm st) recs)).
  Proof.
    induction recs as [|r rest IH]; intros st Hp Hn H1 H2; [reflexivity|].
    cbn [forallb] in H1, H2. apply andb_true_iff in H1 as [R1 H1]. apply andb_true_iff in H2 as [R2 H2].
    destruct (model_or_not r) as [->|Hm].
    - cbn [fm gloop gstep].
      set (st1 := mkG (g_prev st) (g_res st) (S (g_nm st)) (g_count st) (g_chains st) (g_placed st)).
      change (g_nm st1) with (S (g_nm st)).
      destruct (1 <=? g_nm st)%nat eqn:E1.
      + (* second MODEL: break; on the cut list the loop ends and flushes *)
        apply Nat.leb_le in E1. assert (E2 : (1 <? S (g_nm st))%nat = true) by (apply Nat.ltb_lt; lia).
        rewrite E2. cbn [gloop option_map]. f_equal.
        change (g_chains (close st1) = g_chains (gfinish tab st)). unfold st1. rewrite close_chains_nm.
        unfold gfinish, close. rewrite (proj2 (Nat.leb_le _ 1) Hn), andb_true_r.
        destruct (is_nil (g_res st)); reflexivity.
      + apply Nat.leb_gt in E1. assert (E0 : g_nm st = 0) by lia.
        assert (E2 : (1 <? S (g_nm st))%nat = false) by (rewrite E0; reflexivity). rewrite E2.
        cbn [gloop gstep]. fold st1. change (g_nm st1) with (S (g_nm st)). rewrite E2.
        apply (IH st1); try assumption; unfold st1; cbn [g_nm]; lia.
    - rewrite (fm_cons _ _ _ Hm). cbn [gloop]. rewrite <- (gstep_inert nch nch' fr fr' st r R1 R2).
      destruct (gstep_cont nch fr st r Hm R1 Hp) as [st1 [-> [Hp1 [N1 _]]]].
      rewrite <- N1. apply IH; try assumption. lia.
  Qed.

  Theorem group_first_model recs :
    inert recs = true -> group tab recs = group tab (fm 0 recs).
  Proof.
    intros Hin. unfold group.
    assert (R1 : forallb (rec_inert (1 + count_ter recs)) recs = true)
      by (apply inert_rec_inert; [lia | exact Hin]).
    assert (R2 : forallb (rec_inert (1 + count_ter (fm 0 recs))) recs = true).
    { apply inert_rec_inert; [|exact Hin]. intros H. pose proof (count_ter_fm 0 recs). lia. }
    pose proof (gloop_fm _ _ (free_ids recs) (free_ids (fm 0 recs)) recs g0
                  (fun H => False_ind _ (H eq_refl)) (Nat.le_0_l 1) R1 R2) as E.
    cbn [g_nm g0] in E.
    destruct (gloop tab (1 + count_ter recs) (free_ids recs) g0 recs),
      (gloop tab (1 + count_ter (fm 0 recs)) (free_ids (fm 0 recs)) g0 (fm 0 recs));
      simpl in E; try discriminate; [injection E as E; rewrite E|]; reflexivity.
  Qed.
End Loop.

Lemma concat_cons_nel {A} (h : list A) t : concat (cons_nel h t) = h ++ concat t.
Proof. destruct h; reflexivity. Qed.

Lemma Forall_cons_nel {A} (P : list A -> Prop) h t : P h -> Forall P t -> Forall P (cons_nel h t).
Proof. intros H1 H2. destruct h; [exact H2 | constructor; assumption]. Qed.

Definition hom (seg : list atomrec) : Prop := forall a b, In a seg -> In b seg -> same_key a b = true.

Lemma hom_nil : hom []. Proof. intros a b []. Qed.
Lemma hom_one a : hom [a].
Proof. intros x y [Hx|[]] [Hy|[]]. subst. apply same_key_refl. Qed.

Lemma last_atom_in pend q : last_atom pend = Some q -> In q pend.
Proof.
  intros Eq. destruct pend as [|x xs]; [discriminate|].
  destruct (last_atom_some (x :: xs)) as [q' [E' I']]; [discriminate|]. congruence.
Qed.

Lemma hom_snoc pend q a :
  hom pend -> last_atom pend = Some q -> same_key a q = true -> hom (pend ++ [a]).
Proof.
  intros Hh Eq Ek. pose proof (last_atom_in _ _ Eq) as Hq.
  assert (Ka : forall z, In z pend -> same_key z a = true).
  { intros z Hz. eapply same_key_trans; [apply (Hh z q Hz Hq) | apply same_key_sym; exact Ek]. }
  intros x y Hx Hy. apply in_app_or in Hx, Hy.
  destruct Hx as [Hx|[Hx|[]]], Hy as [Hy|[Hy|[]]]; subst.
  - apply Hh; assumption.
  - apply Ka; assumption.
  - apply same_key_sym, Ka; assumption.
  - apply same_key_refl.
Qed.

(* a record with another key matches no record of the run *)
Lemma hom_other_key pend q a x :
  hom pend -> last_atom pend = Some q -> same_key a q = false -> In x pend -> same_id a x = false.
Proof.
  intros Hh Eq Ek Hx. destruct (same_id a x) eqn:E; [|reflexivity].
  rewrite same_id_split in E. apply andb_true_iff in E as [E _]. pose proof (last_atom_in _ _ Eq) as Hq.
  rewrite (same_key_trans a x q E (Hh x q Hx Hq)) in Ek. discriminate.
Qed.

Lemma lsegs_hom recs : forall pl nm pend, hom pend -> Forall hom (lsegs pl nm pend recs).
Proof.
  induction recs as [|r rest IH]; intros pl nm pend Hh.
  - simpl. destruct (negb (is_nil pend) && (nm <=? 1)%nat); repeat constructor. exact Hh.
  - destruct r as [a| | |]; cbn [lsegs].
    + destruct (existsb (same_id a) pl); [apply IH; exact Hh|].
      destruct (last_atom pend) as [q|] eqn:Eq.
      * destruct (same_key a q) eqn:Ek.
        -- apply IH. eapply hom_snoc; eassumption.
        -- constructor; [exact Hh | apply IH, hom_one].
      * apply IH, hom_one.
    + apply IH; exact Hh.
    + apply Forall_cons_nel; [exact Hh | apply IH, hom_nil].
    + destruct (1 <? S nm)%nat; [apply Forall_cons_nel; [exact Hh | constructor] | apply IH; exact Hh].
Qed.

(* per-run first-wins + skipping placed identities = global first-wins *)

Local Notation KF := (keep_first same_id).

Lemma no_match_kf P pend :
  (forall x, In x pend -> existsb (same_id x) P = false) -> KF P pend = KF [] pend.
Proof. intros H. apply kf_seen_ext. exact H. Qed.

(* closing the run [pend]: what was seen = placed ++ pend *)
Lemma kf_close P pend l :
  (forall x, In x pend -> existsb (same_id x) P = false) ->
  KF P (pend ++ l) = KF [] pend ++ KF (P ++ pend) l.
Proof.
  intros H. rewrite kf_app, (no_match_kf P pend H). f_equal.
  apply kf_seen_ext. intros x _. rewrite <- (no_match_kf P pend H).
  apply (kf_existsb _ idk same_id same_id_key).
Qed.

Lemma kf_lsegs recs : forall P nm pend,
  nm <= 1 -> hom pend -> (forall x, In x pend -> existsb (same_id x) P = false) ->
  concat (map (KF []) (lsegs P nm pend recs)) = KF P (pend ++ atoms_of (fm nm recs)).
Proof.
  induction recs as [|r rest IH]; intros P nm pend Hnm Hh Hno.
  - cbn [lsegs fm atoms_of]. rewrite app_nil_r.
    assert (E : (nm <=? 1)%nat = true) by (apply Nat.leb_le; exact Hnm). rewrite E, andb_true_r.
    destruct pend as [|x xs]; [reflexivity|]. cbn [is_nil negb map concat]. rewrite app_nil_r.
    symmetry. apply no_match_kf. exact Hno.
  - destruct r as [a| | |]; cbn [lsegs fm atoms_of].
    + destruct (existsb (same_id a) P) eqn:Ea.
      { rewrite (IH P nm pend Hnm Hh Hno). symmetry. apply kf_drop_seen. exact Ea. }
      destruct (last_atom pend) as [q|] eqn:Eq.
      * destruct (same_key a q) eqn:Ek.
        -- rewrite (IH P nm (pend ++ [a]) Hnm).
           ++ rewrite <- app_assoc. reflexivity.
           ++ eapply hom_snoc; eassumption.
           ++ intros x Hx. apply in_app_or in Hx as [Hx|[Hx|[]]]; [apply Hno; exact Hx | subst x; exact Ea].
        -- cbn [map concat]. rewrite (IH (P ++ pend) nm [a] Hnm (hom_one a)).
           ++ symmetry. apply (kf_close P pend (a :: atoms_of (fm nm rest)) Hno).
           ++ intros x [Hx|[]]. subst x. rewrite existsb_app, Ea. cbn [orb].
              destruct (existsb (same_id a) pend) eqn:Ex; [|reflexivity].
              apply existsb_exists in Ex as [y [Hy Ey]].
              rewrite (hom_other_key pend q a y Hh Eq Ek Hy) in Ey. discriminate.
      * apply last_atom_none in Eq. subst pend.
        rewrite (IH P nm [a] Hnm (hom_one a)); [reflexivity|].
        intros x [Hx|[]]. subst x. exact Ea.
    + apply IH; assumption.
    + assert (C : concat (map (KF []) (cons_nel pend (lsegs (P ++ pend) nm [] rest))) =
                  KF [] pend ++ concat (map (KF []) (lsegs (P ++ pend) nm [] rest))).
      { destruct pend; reflexivity. }
      rewrite C, (IH (P ++ pend) nm [] Hnm hom_nil) by (intros x []).
      symmetry. apply (kf_close P pend (atoms_of (fm nm rest)) Hno).
    + destruct (1 <=? nm)%nat eqn:E1.
      * apply Nat.leb_le in E1. assert (E2 : (1 <? S nm)%nat = true) by (apply Nat.ltb_lt; lia).
        rewrite E2. cbn [atoms_of]. rewrite app_nil_r.
        destruct pend as [|x xs]; [reflexivity|]. cbn [cons_nel map concat]. rewrite app_nil_r.
        symmetry. apply no_match_kf. exact Hno.
      * apply Nat.leb_gt in E1. assert (nm = 0) by lia. subst nm.
        cbn [Nat.ltb Nat.leb atoms_of]. apply (IH P 1 pend); [lia | exact Hh | exact Hno].
Qed.

Lemma kf_hom seg : hom seg -> KF [] seg = keep_first name_eq [] seg.
Proof.
  intros H. apply kf_agree. simpl. intros a b Ha Hb. rewrite same_id_split, (H a b Ha Hb). reflexivity.
Qed.

(* create_residue keeps the first-listed record of every name *)

Section Stable.
  (* any observation of an atom that the residue constructors do not touch
     (they touch name, alt_loc, res_name and Atom.type only) *)
  Variable B : Type.
  Variable p : atomrec -> B.
  Hypothesis p_alt : forall a s, p (set_alt a s) = p a.
  Hypothesis p_name : forall a s, p (set_name a s) = p a.
  Hypothesis p_resname : forall a s, p (set_resname a s) = p a.
  Hypothesis p_het : forall a h, p (set_het a h) = p a.

  Lemma dedupe_p blank l : forall S,
    map p (dedupe blank (map a_name S) l) = map p (keep_first name_eq S l).
  Proof.
    induction l as [|a r IH]; intros S; simpl; [reflexivity|].
    rewrite mem_str_map. destruct (existsb (name_eq a) S); [apply IH|].
    simpl. f_equal.
    - destruct (blank && existsb (fun b => a_name b =? a_name a) r); [apply p_alt | reflexivity].
    - apply (IH (a :: S)).
  Qed.

  Lemma map_map_p f l : (forall a, p (f a) = p a) -> map p (map f l) = map p l.
  Proof. intros H. rewrite map_map. apply map_ext. exact H. Qed.

  Variable tab : deftab.

  Definition geq (seg : list atomrec) (a b : atomrec) : bool :=
    run_rename tab seg (a_name a) =? run_rename tab seg (a_name b).

  Lemma mkres_p seg : map p (r_atoms (mkres tab seg)) = map p (keep_first (geq seg) [] seg).
  Proof.
    unfold mkres, geq, run_rename, create_residue.
    destruct (last_atom seg) as [q|] eqn:Eq.
    2:{ apply last_atom_none in Eq. subst seg. reflexivity. }
    set (rn := match lookup (a_resname q) tab with Some _ => a_resname q | None => rna_map (a_resname q) end).
    assert (Gen : map p (dedupe true [] seg) = map p (keep_first (fun a b => a_name a =? a_name b) [] seg)).
    { exact (dedupe_p true seg []). }
    destruct (lookup rn tab) as [[k alts]|] eqn:El.
    - assert (Ren : forall blank,
                map p (dedupe blank [] (map (fun a => set_name a (alt_name alts (a_name a))) seg)) =
                map p (keep_first (fun a b => alt_name alts (a_name a) =? alt_name alts (a_name b)) [] seg)).
      { intros blank. rewrite (dedupe_p blank _ []).
        pose proof (kf_map (fun a => set_name a (alt_name alts (a_name a))) name_eq
                      (fun a b => alt_name alts (a_name a) =? alt_name alts (a_name b)) seg
                      (fun x y => eq_refl) []) as K.
        cbn [map] in K. rewrite <- K.
        apply map_map_p. intros a. apply p_name. }
      destruct k; simpl;
        [rewrite map_map_p by (intros a; rewrite p_het; apply p_resname); apply Ren .. |].
      destruct (a_resname q =? "HOH"); simpl; [rewrite map_map_p by (intros a; apply p_resname)|]; exact Gen.
    - destruct (a_resname q =? "HOH"); simpl; [rewrite map_map_p by (intros a; apply p_resname)|]; exact Gen.
  Qed.

  Lemma mkres_p_alias seg :
    alias_ok tab seg = true ->
    map p (r_atoms (mkres tab seg)) = map p (keep_first name_eq [] seg).
  Proof.
    intros H. rewrite mkres_p. f_equal. apply kf_agree. simpl. intros a b Ha Hb.
    unfold alias_ok in H. rewrite forallb_forall in H. specialize (H a Ha).
    rewrite forallb_forall in H. specialize (H b Hb).
    unfold geq, name_eq. destruct (a_name a =? a_name b) eqn:En.
    - apply String.eqb_eq in En. rewrite En. apply String.eqb_refl.
    - destruct (run_rename tab seg (a_name a) =? run_rename tab seg (a_name b)) eqn:Eg; [|reflexivity].
      simpl in H. discriminate H.
  Qed.

  Theorem group_complete recs :
    inert recs = true ->
    forallb (alias_ok tab) (lsegs [] 0 [] recs) = true ->
    exists rs, group tab recs = Some rs /\
      Permutation (map p (all_atoms rs))
                  (map p (keep_first same_ident [] (atoms_of (fm 0 recs)))).
  Proof.
    intros Hin Hal.
    assert (Hri : forallb (rec_inert (1 + count_ter recs)) recs = true).
    { apply inert_rec_inert; [lia | exact Hin]. }
    destruct (gloop_lsegs tab (1 + count_ter recs) (free_ids recs) recs g0) as [st' [G P]];
      [intros H; exfalso; apply H; reflexivity | exact Hri |].
    unfold group. rewrite G. eexists; split; [reflexivity|].
    simpl in P. set (segs := lsegs [] 0 [] recs) in *.
    unfold all_atoms. rewrite <- !flat_map_concat_map.
    assert (P2 : Permutation (flat_map snd (sort_chains (g_chains st'))) (map (mkres tab) segs)).
    { eapply Permutation_trans; [|exact P]. apply Permutation_flat_map, sort_chains_perm. }
    eapply Permutation_trans.
    { apply Permutation_map. apply Permutation_flat_map. exact P2. }
    (* what remains is an equality: run by run, the residue's atoms are the first-listed records *)
    assert (E : map p (flat_map r_atoms (map (mkres tab) segs)) =
                map p (keep_first same_ident [] (atoms_of (fm 0 recs)))).
    { assert (Hk : keep_first same_ident [] (atoms_of (fm 0 recs)) = KF [] (atoms_of (fm 0 recs))).
      { apply kf_agree. intros a b _ _. symmetry. apply same_id_ident. }
      rewrite Hk.
      pose proof (kf_lsegs recs [] 0 [] (Nat.le_0_l 1) hom_nil (fun x (H : In x []) => False_ind _ H)) as Hc.
      cbn [app] in Hc. rewrite <- Hc. fold segs.
      assert (Hh : Forall hom segs) by (apply lsegs_hom, hom_nil).
      clear - Hh Hal p_alt p_name p_resname p_het. induction segs as [|s r IH]; [reflexivity|].
      simpl in *. apply andb_true_iff in Hal as [Ha Hr]. inversion Hh as [|? ? Hs Hr']; subst.
      rewrite !map_app. rewrite (IH Hr Hr'). f_equal.
      rewrite (mkres_p_alias s Ha), (kf_hom s Hs). reflexivity. }
    rewrite E. apply Permutation_refl.
  Qed.

End Stable.
