(* Lemmas about the DX -> cube model (C18). *)
From Coq Require Import String Ascii List Arith NArith ZArith Lia Bool.
From Coq Require Import ZifyBool ZifyNat.
From PV Require Import Lib.Lists Lib.Strings Model.DxCube.
Import ListNotations.
(* lets [lia] reason about / and mod (also in every file that imports this one);
   the [lia] calls of [chunks_from], where c = (length vals - k + 5) / 6, rely on it *)
Ltac Zify.zify_post_hook ::= Z.div_mod_to_equations.

Section Chunks.
  Variable V : Type.

  (* shape: full lines of exactly 6 followed by "\n", then one last line of
     1..6 values without "\n"; nothing at all for an empty grid *)
  Inductive shaped : list (list V * bool) -> Prop :=
  | shaped_last l : 1 <= length l <= 6 -> shaped [(l, false)]
  | shaped_full l r : length l = 6 -> shaped r -> shaped ((l, true) :: r).

  (* the passes of the loop from index k on, c = ceil((n - k) / 6) of them: they
     write the values from k on, once and in order, in lines of that shape *)
  Lemma chunks_from (vals : list V) c k :
    c = (length vals - k + 5) / 6 ->
    concat (map fst (map (chunk_at V vals) (range6 k c))) = skipn k vals /\
    (k < length vals -> shaped (map (chunk_at V vals) (range6 k c))).
  Proof.
    revert k; induction c as [|c IH]; intros k Hc.
    - split; [|lia]. symmetry. apply skipn_all2. lia.
    - cbn [range6 map]. unfold chunk_at at 1 3, lslice.
      destruct (Nat.ltb_spec (k + 6) (length vals)) as [H6 | H6].
      + destruct (IH (k + 6)) as [IC IS]; [lia|].
        replace (k + 6 - k) with 6 by lia. cbn [map fst concat]. split.
        * rewrite IC, skipn_add. apply firstn_skipn.
        * intros _. apply shaped_full; [|apply IS, H6].
          rewrite firstn_length, skipn_length. lia.
      + assert (c = 0) by lia. subst c. cbn [range6 map fst concat]. split.
        * apply app_nil_r.
        * intros Hlt. apply shaped_last. rewrite skipn_length. lia.
  Qed.

  Theorem chunks_concat (vals : list V) : concat (map fst (chunks V vals)) = vals.
  Proof. apply (chunks_from vals _ 0). now rewrite Nat.sub_0_r. Qed.

  Theorem chunks_shaped (vals : list V) : vals <> [] -> shaped (chunks V vals).
  Proof.
    intros H. apply (chunks_from vals _ 0); [now rewrite Nat.sub_0_r|].
    destruct vals; [congruence | cbn; lia].
  Qed.

  Theorem chunks_nil : chunks V [] = [].
  Proof. reflexivity. Qed.
End Chunks.

Section Text.
  Variable V : Type.
  Variable pfloat : string -> V.
  Variable pint : string -> Z.
  Variables (fmtE fmtF : V -> string) (fmtI : Z -> string).
  (* the printed form of a value is one whitespace-free token [core v]
     possibly surrounded by blanks (what "< 13.5E" produces) *)
  Variable core : V -> string.
  Hypothesis fmtE_token : forall v, tokens (fmtE v) = [core v].

  Lemma tokens_join_fmt (l : list V) : tokens (join " " (map fmtE l)) = map core l.
  Proof.
    rewrite tokens_join_sp, map_map. induction l as [|x r IH]; [reflexivity|].
    simpl. rewrite fmtE_token, IH. reflexivity.
  Qed.

  Lemma tokens_concat_lines (cs : list (list V * bool)) :
    shaped V cs \/ cs = [] ->
    tokens (String.concat "" (map (chunk_text V fmtE) cs)) = map core (concat (map fst cs)).
  Proof.
    intros [H | ->]; [|reflexivity].
    induction H as [l Hl | l r Hl Hr IH].
    - simpl. unfold chunk_text; simpl. rewrite !Strings.app_empty_r, app_nil_r. apply tokens_join_fmt.
    - cbn [map String.concat fst concat].
      assert (Hr' : map (chunk_text V fmtE) r <> []) by (inversion Hr; discriminate).
      destruct (map (chunk_text V fmtE) r) as [|y ys] eqn:Er; [congruence|].
      unfold chunk_text at 1; cbn [fst snd]. unfold nl.
      change ("" ++ ?x)%string with x.
      rewrite Strings.app_assoc_s. cbn [append].
      rewrite tokens_app_ws by reflexivity.
      rewrite tokens_join_fmt, map_app. f_equal. exact IH.
  Qed.

  (* the text written after the atom lines tokenises to exactly the grid
     values, in order: none lost, none duplicated, none invented *)
  Theorem body_tokens (d : dx V) :
    tokens (String.concat "" (cube_body V fmtE d)) = map core (dx_values V d).
  Proof.
    unfold cube_body. rewrite tokens_concat_lines.
    - now rewrite chunks_concat.
    - destruct (dx_values V d) eqn:E; [right; reflexivity | left; apply chunks_shaped; congruence].
  Qed.

  Variables (coreF : V -> string) (coreI : Z -> string).
  Hypothesis fmtF_token : forall v, tokens (fmtF v) = [coreF v].
  Hypothesis fmtI_token : forall n, tokens (fmtI n) = [coreI n].

  Lemma vec_line_tokens lead t a b c :
    tokens lead = [t] ->
    tokens (vec_line V fmtF lead (a, b, c)) = [t; coreF a; coreF b; coreF c].
  Proof.
    intros Hl. unfold vec_line, nl. cbn [append].
    rewrite !tokens_app_ws by reflexivity.
    rewrite Hl, !fmtF_token. reflexivity.
  Qed.

  Definition atom_fields (a : atom V) : list string :=
    [coreI (a_serial V a); coreF (a_charge V a); coreF (a_x V a); coreF (a_y V a); coreF (a_z V a)].

  Lemma atom_line_tokens a : tokens (atom_line V fmtF fmtI a) = atom_fields a.
  Proof.
    unfold atom_line, nl, atom_fields. cbn [append].
    rewrite !tokens_app_ws by reflexivity.
    rewrite fmtI_token, !fmtF_token. reflexivity.
  Qed.

  (* lines 3..6 carry natoms+origin and the NEGATED counts with the spacing
     vectors in order; then exactly one line per atom, in order *)
  Theorem header_fields comment d atoms hdr :
    cube_header V fmtF fmtI comment d atoms = Some hdr ->
    exists ox oy oz nx ny nz s0 s1 s2 rest,
      dx_origin V d = Some (ox, oy, oz) /\ dx_counts V d = Some (nx, ny, nz) /\
      dx_deltas V d = s0 :: s1 :: s2 :: rest /\
      map tokens (skipn 2 hdr) =
        ([coreI (Z.of_nat (length atoms)); coreF ox; coreF oy; coreF oz]
         :: (coreI (- nx) :: map coreF [fst (fst s0); snd (fst s0); snd s0])
         :: (coreI (- ny) :: map coreF [fst (fst s1); snd (fst s1); snd s1])
         :: (coreI (- nz) :: map coreF [fst (fst s2); snd (fst s2); snd s2])
         :: map atom_fields atoms).
  Proof.
    unfold cube_header. intros H.
    destruct (dx_origin V d) as [[[ox oy] oz]|]; [|discriminate].
    destruct (dx_counts V d) as [[[nx ny] nz]|]; [|discriminate].
    destruct (dx_deltas V d) as [|[[a0 b0] c0] [|[[a1 b1] c1] [|[[a2 b2] c2] rest]]]; try discriminate.
    injection H as <-.
    exists ox, oy, oz, nx, ny, nz, (a0, b0, c0), (a1, b1, c1), (a2, b2, c2), rest.
    repeat split. cbn [List.app skipn map fst snd].
    pose proof (fun n a b c => vec_line_tokens _ _ a b c (fmtI_token n)) as Hv.
    unfold vec_line in Hv. cbn [append] in Hv. rewrite !Hv.
    repeat f_equal. rewrite map_map. apply map_ext. intros a. apply atom_line_tokens.
  Qed.

  Definition keyword (k : string) : bool :=
    mem_str k ["#"; "attribute"; "component"; "object"; "origin"; "delta"]%string.

  Definition is_data (line : string) : bool :=
    match tokens line with [] => false | k :: _ => negb (keyword k) end.

  Definition data_tokens (lines : list string) : list string :=
    concat (map tokens (filter is_data lines)).

  Lemma dx_line_values d line d' :
    dx_line V pfloat pint d line = Some d' ->
    dx_values V d' =
    if is_data line then (dx_values V d ++ map pfloat (tokens line))%list else dx_values V d.
  Proof.
    unfold dx_line, is_data, keyword, w.
    destruct (tokens line) as [|k ws]; [discriminate|]. cbn [mem_str].
    destruct (k =? "#")%string; [intros [= <-]; reflexivity|].
    destruct (k =? "attribute")%string; [intros [= <-]; reflexivity|].
    destruct (k =? "component")%string; [intros [= <-]; reflexivity|].
    destruct (k =? "object")%string; cbn [orb negb].
    { destruct (nth_error (k :: ws) 1) as [o|]; [|discriminate].
      destruct (o =? "1")%string; [|intros [= <-]; reflexivity].
      destruct (nth_error (k :: ws) 5), (nth_error (k :: ws) 6), (nth_error (k :: ws) 7);
        try discriminate; intros [= <-]; reflexivity. }
    destruct (k =? "origin")%string; cbn [orb negb].
    { destruct (nth_error (k :: ws) 1), (nth_error (k :: ws) 2), (nth_error (k :: ws) 3);
        try discriminate; intros [= <-]; reflexivity. }
    destruct (k =? "delta")%string; cbn [orb negb].
    { destruct (nth_error (k :: ws) 1), (nth_error (k :: ws) 2), (nth_error (k :: ws) 3);
        try discriminate; intros [= <-]; reflexivity. }
    intros [= <-]. reflexivity.
  Qed.

  Lemma read_dx_from_values lines : forall d d',
    read_dx_from V pfloat pint d lines = Some d' ->
    dx_values V d' = (dx_values V d ++ map pfloat (data_tokens lines))%list.
  Proof.
    induction lines as [|l r IH]; intros d d' H.
    - injection H as <-. symmetry. apply app_nil_r.
    - cbn [read_dx_from] in H.
      destruct (dx_line V pfloat pint d l) as [d1|] eqn:E1; [|discriminate].
      rewrite (IH _ _ H), (dx_line_values _ _ _ E1).
      unfold data_tokens. cbn [filter]. destruct (is_data l); [|reflexivity].
      cbn [map concat]. now rewrite map_app, app_assoc.
  Qed.

  (* whenever read_dx returns at all, the values are exactly the tokens of the
     data lines, converted one by one, in file order - however many tokens a
     line holds (1, 3, 6, ...) *)
  Theorem read_dx_values lines d :
    read_dx V pfloat pint lines = Some d ->
    dx_values V d = map pfloat (data_tokens lines).
  Proof. intros H. apply read_dx_from_values in H. exact H. Qed.

  Theorem dx2cube_values lines d comment atoms text :
    read_dx V pfloat pint lines = Some d ->
    write_cube V fmtE fmtF fmtI comment d atoms = Some text ->
    exists hdr,
      cube_header V fmtF fmtI comment d atoms = Some hdr /\
      length hdr = 6 + length atoms /\
      text = (String.concat "" hdr ++ String.concat "" (cube_body V fmtE d))%string /\
      tokens (String.concat "" (cube_body V fmtE d)) = map core (map pfloat (data_tokens lines)).
  Proof.
    intros Hr Hw. unfold write_cube in Hw.
    destruct (cube_header V fmtF fmtI comment d atoms) as [hdr|] eqn:Eh; [|discriminate].
    exists hdr. split; [reflexivity|]. split.
    - unfold cube_header in Eh.
      destruct (dx_origin V d), (dx_counts V d) as [[[nx ny] nz]|], (dx_deltas V d) as [|s0 [|s1 [|s2 ?]]];
        try discriminate; injection Eh as <-; cbn [List.app length]; rewrite map_length; reflexivity.
    - split.
      + injection Hw as <-. apply concat_app_s.
      + rewrite body_tokens. now rewrite (read_dx_values _ _ Hr).
  Qed.
End Text.
