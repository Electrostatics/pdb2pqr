(* E2E_Assign - `pdb2pqr --assign-only --ff=<FF> [--drop-water] [--keep-chain] [--whitespace]`
   end to end, as the composition of the C07 model (ingest), set_termini (Model/CleanRun.v),
   the C02 state model (States.set_state / nuc_state), the C01 force-field map and
   assignment (ForceField.assign / lookup over Generated.FF_<ff>.built) and the C08
   formatter.  Property theorems only; model in Model/AssignRun.v, proofs in
   Proofs/AssignRun.v (nothing of C01 / C02 / C07 / C08 is re-proved).

   Objects:
     assign_only_run fok tab ct pt near r3 names unk m rn dropw keep ws lines
         = AOk chunks missed   the strings print_pqr writes + results["missed_residues"]
         | AErr cls            the exception class that leaves main_driver
       m = Forcefield(ff).map (Generated.FF_<ff>.built, equal to pdb2pqr's by C01_table_eq_<ff>);
       names/unk = the interner's string table (Generated/E2ENames.v);  ct = residue name ->
       python class;  rn = rendering oracles of '%.4f' (decimal ties, negative zero), compared
       with Python for every entry of the map on every run;  fok/r3/near/tab/pt as in E2E_Clean.
     named_residues ... dropw lines = inr ns   the residue objects after set_termini with the name
                                               apply_force_field looks each one up under
     ff_residues names unk ns                  the same residues as C01's interned residues
     sid names unk s                           id of string s (unk outside the closed universe)

   What the file contains: ONLY the atom lines of the matched atoms, TER between chains,
   TER END (print_pqr ignores the header and the "missed" lines: they only produce a log
   warning, so no REMARK line is written even with --include-header).

   FULL STATEMENT wanted: for all inputs, every coordinate record of the first model is
   written with exactly the parameters  lookup (built ff) (state name) (atom name)  or is
   in the missed list, exactly once, in order.  Proved for ALL inputs relative to the atoms
   after set_termini (E2E_assign_written_exact / _missed_exact / _partition_order); relative
   to the INPUT records only under C07's guard and a quiet set_termini
   (E2E_assign_faithful_partial) - without it set_termini deletes the 5' phosphate and
   renames terminal atoms (E2E_clean_run_faithful_refuted).  Not modelled: --ligand,
   --ffout, --userff/--usernames, --neutraln/--neutralc; float summation of Residue.charge
   is modelled by exact decimals (round4). *)
From Coq Require Import String List ZArith NArith PArith Bool Permutation.
From PV Require Import Lib.Strings Lib.Decimal Model.PdbRead Model.Group Model.PdbSpec Model.CleanRun
  Model.AssignRun Proofs.CleanRun Proofs.AssignRun.
From PV Require Model.PqrFormat Proofs.PqrFormat Model.ForceField Proofs.ForceField Model.States Proofs.States.
From PV Require Generated.E2ENames Generated.FF_AMBER.
Import ListNotations.
Local Open Scope string_scope.

Module MP := PV.Model.PqrFormat.
Module PP := PV.Proofs.PqrFormat.
Module FF := PV.Model.ForceField.
Module ST := PV.Model.States.
Module PST := PV.Proofs.States.

(* ALL inputs (default layout): the file is the atom lines of the hits in order; every hit
   is an atom of a residue after set_termini whose entry is exactly
   lookup m (id of the residue's state name) (id of the atom name); and within C08's column
   capacities each line reads back to its atom - charge and radius included
   (expected_fixed on conv_hit has f_charge = Some (pf_of 4 (q4_charge rn e)) and
   f_radius = Some (pf_of 4 (q4 rn (e_r e))): Proofs/AssignRun.v expected_charge, by
   computation; not part of this statement) *)
Theorem E2E_assign_written_exact :
  forall fok tab ct pt near (r3 : string -> MP.fx) names unk (m : FF.ffmap) rn dropw keep lines chunks missed,
  assign_only_run fok tab ct pt near r3 names unk m rn dropw keep false lines = AOk chunks missed ->
  exists ns hits,
    named_residues fok tab ct pt near dropw lines = inr ns /\
    hits = fst (FF.assign m (ff_residues names unk ns)) /\
    chunks = map MP.item_text (MP.print_items keep (map (conv_hit rn r3) hits)) /\
    (forall a e, In (a, e) hits ->
       exists t fn, In (t, fn) ns /\ In a (r_atoms (t_r t)) /\
         FF.lookup m (sid names unk fn) (sid names unk (a_name a)) = Some e) /\
    (PP.all_ok (MP.fixed_ok keep) 0 (map (conv_hit rn r3) hits) ->
       map MP.read_fixed (PP.atom_lines (MP.print_items keep (map (conv_hit rn r3) hits))) =
       map (MP.expected_fixed keep) (PP.renumbered 0 (map (conv_hit rn r3) hits))).
Proof. exact assign_written_exact. Qed.

(* ALL inputs, any flags: an atom is reported missing (and not written) only when the map
   has no entry under the residue's state name *)
Theorem E2E_assign_missed_exact :
  forall fok tab ct pt near (r3 : string -> MP.fx) names unk (m : FF.ffmap) rn dropw keep ws lines chunks missed,
  assign_only_run fok tab ct pt near r3 names unk m rn dropw keep ws lines = AOk chunks missed ->
  exists ns, named_residues fok tab ct pt near dropw lines = inr ns /\
    forall a, In a missed ->
      exists t fn, In (t, fn) ns /\ In a (r_atoms (t_r t)) /\
        FF.lookup m (sid names unk fn) (sid names unk (a_name a)) = None.
Proof. exact assign_missed_exact. Qed.

(* ALL inputs: written ++ missing is a permutation of the atoms after set_termini (none
   lost, none twice), and both lists keep the order of the atoms: the written ones are the
   atoms WITH an entry in order, the missing ones the atoms WITHOUT *)
Theorem E2E_assign_partition_order :
  forall fok tab ct pt near (r3 : string -> MP.fx) names unk (m : FF.ffmap) rn dropw keep ws lines chunks missed,
  assign_only_run fok tab ct pt near r3 names unk m rn dropw keep ws lines = AOk chunks missed ->
  exists ns, named_residues fok tab ct pt near dropw lines = inr ns /\
    Permutation (map fst (fst (FF.assign m (ff_residues names unk ns))) ++ missed) (atoms_of_named ns) /\
    map fst (fst (FF.assign m (ff_residues names unk ns))) = hit_atoms m (ff_residues names unk ns) /\
    missed = miss_atoms m (ff_residues names unk ns).
Proof. exact assign_partition_order. Qed.

(* the state name of an amino-acid residue is C02's: prefix(terminus flags) x
   base(side-chain state) of the descriptor read off the residue (C02_set_state_spec) *)
Theorem E2E_assign_names_are_C02 : forall (ct : ctab) (t : tres) (n : string),
  t_kind t = KAmino -> state_name ct t = SName n ->
  exists cn c b d sb,
    lookup (r_name (t_r t)) ct = Some cn /\ class_of_str cn = Some c /\
    base_of_str (r_name (t_r t)) = Some b /\ d = adesc_of c b t /\
    PST.spec_base d = Some sb /\ n = ST.show_sname (PST.spec_prefix d, sb).
Proof. exact names_are_C02. Qed.

(* relative to the INPUT: under C07's guard and a quiet set_termini every coordinate record
   C07's column read selects is either written with parameters or reported missing, once *)
Theorem E2E_assign_faithful_partial :
  forall fok tab ct pt near (r3 : string -> MP.fx) names unk (m : FF.ffmap) rn keep ws lines chunks missed,
  guard fok tab lines = true ->
  (forall rs, ingest fok tab false lines = Done rs -> termini_quiet tab pt near rs = true) ->
  assign_only_run fok tab ct pt near r3 names unk m rn false keep ws lines = AOk chunks missed ->
  exists ns, named_residues fok tab ct pt near false lines = inr ns /\
    Permutation (map a_src (map fst (fst (FF.assign m (ff_residues names unk ns))) ++ missed))
                (map strip (cols_read lines)).
Proof. exact assign_faithful_partial. Qed.

(* non-vacuity: pdb2pqr's own hydrogenated SER-HIS-ALA with a ligand and a water under
   AMBER: the residues are looked up as NSER, HID (HD1 only, set_hip), CALA, LIG, WAT; 44
   atom lines with the stated parameters, the two ligand atoms missing; the exact file *)
Example E2E_assign_nonvacuous :
  guard py_float_ok xtab ex_assign = true /\
  (exists chunks missed, ex_run = AOk chunks missed /\
     String.concat "" chunks = ex_assign_out /\
     map a_name missed = ["C1"; "O1"] /\ List.length chunks = 45) /\
  match named_residues py_float_ok xtab xct ept near_dec false ex_assign with
  | inr ns => map snd ns = ["NSER"; "HID"; "CALA"; "LIG"; "WAT"]
  | inl _ => False
  end.
Proof. exact ex_assign_ok. Qed.

Print Assumptions E2E_assign_written_exact.
Print Assumptions E2E_assign_missed_exact.
Print Assumptions E2E_assign_partition_order.
Print Assumptions E2E_assign_names_are_C02.
Print Assumptions E2E_assign_faithful_partial.
Print Assumptions E2E_assign_nonvacuous.
