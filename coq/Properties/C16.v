(* C16 - ligand charges conserve the formal charge and stay on the ligand.

   Exact-field statements: [ops] is any arithmetic record over Q that obeys the
   field/order laws [QLaws]; [QA] (the instance that is executed against the
   Python code) is one ([C16_QA_laws]).  The binary64 instance [FA] is tied to
   the code bit for bit by the harness; the rounding gap between the two is
   measured, not proved. *)
From Coq Require Import String List ZArith QArith Bool Lia.
From PV Require Import Lib.Strings Lib.Decimal Model.Peoe Proofs.Peoe Proofs.PeoeRelabel Model.Mol2Read Proofs.Mol2Read.
From PV Require Model.PqrFormat.
Import ListNotations.

Theorem C16_QA_laws : QLaws QA.
Proof. exact QA_laws. Qed.

(* peoe.equilibrate only redistributes charge: for ALL atom counts, type
   assignments, bond lists (any connectivity, rings, multiple and self bonds),
   entry charges, electronegativity functions chi, damping factors, non-zero
   scale factors and cycle counts >= 1, the returned charges sum to the entry
   (formal) charges.  Rests on: the normaliser chosen for the pair (i,j) is the
   one chosen for (j,i) (antisymmetric transfer), every bond contributes to both
   endpoints, and the formal-charge share 1/num_cycles is added num_cycles times. *)
Theorem C16_peoe_conserves :
  forall (ops : Arith Q), QLaws ops ->
  forall (T : Type) (chi : T -> Q -> Q) (n : nat) (ty : nat -> T)
         (bonds : list (nat * nat)) (ch : nat -> Q) (damp scale : Q) (ncyc : nat),
  bonds_ok n bonds = true -> ~ scale == 0 -> ncyc <> 0%nat ->
  Qsum (equilibrate ops chi n ty bonds ch damp scale ncyc) == Qsum (map ch (seq 0 n)).
Proof. exact peoe_conserves. Qed.

(* the excluded corner: with num_cycles = 0 the returned charges sum to 0,
   whatever the entry charges are (the code's entry point always uses 6) *)
Theorem C16_peoe_zero_cycles :
  forall (ops : Arith Q), QLaws ops ->
  forall (T : Type) (chi : T -> Q -> Q) (n : nat) (ty : nat -> T)
         (bonds : list (nat * nat)) (ch : nat -> Q) (damp scale : Q) (ncyc : nat),
  ncyc = 0%nat -> Qsum (equilibrate ops chi n ty bonds ch damp scale ncyc) == 0.
Proof. exact peoe_zero_cycles. Qed.

(* Relabelling: move the atom at position i to position sigma i (tau undoes
   sigma below n: tau (sigma i) = i; nothing else is asked of it)
   and rewrite the bond endpoints accordingly.  The charge of every atom is
   IDENTICAL (Leibniz equality of the rationals, not just closeness) - the
   result depends on positions only through the permutation.  Atom names are
   not among the kernel's inputs (types, bonds by position, entry charges);
   only the transfer loop further down matches atoms by name. *)
Theorem C16_peoe_equivariant :
  forall (ops : Arith Q), QLaws ops ->
  forall (T : Type) (chi : T -> Q -> Q) (n : nat) (ty : nat -> T)
         (bonds : list (nat * nat)) (ch : nat -> Q) (damp scale : Q) (ncyc : nat)
         (sigma tau : nat -> nat),
  (forall i, (i < n)%nat -> (sigma i < n)%nat) ->
  (forall k, (k < n)%nat -> (tau k < n)%nat) ->
  (forall i, (i < n)%nat -> tau (sigma i) = i) ->
  bonds_ok n bonds = true ->
  forall i, (i < n)%nat ->
  nth_error (equilibrate ops chi n (ty' ty tau) (bonds' bonds sigma) (ch' ch tau) damp scale ncyc) (sigma i) =
  nth_error (equilibrate ops chi n ty bonds ch damp scale ncyc) i.
Proof. exact peoe_equivariant. Qed.

(* every radius the lookup chain returns is an entry of the zap9 table or,
   failing that, of the Bondi table (by Sybyl type, then by upper-cased
   element) and is positive; with no entry the code raises (None) *)
Theorem C16_radius_positive :
  forall (t : string) (r : Z),
  radius_of t = Some r ->
  (0 < r)%Z /\
  (In (t, r) ZAP9 \/ In (upper (before_dot t), r) ZAP9 \/
   In (t, r) BONDI \/ In (upper (before_dot t), r) BONDI).
Proof. exact radius_positive. Qed.

(* each of the 23 supported Sybyl types has a positive radius, a valence, a
   non-bonded electron count, polynomial terms and a positive normaliser chi(+1)
   (so the kernel never divides by zero on supported input) *)
Theorem C16_supported_complete :
  forall t : string,
  In t SUPPORTED ->
  (exists r, radius_of t = Some r /\ (0 < r)%Z) /\
  lookup (before_dot t) VALENCE <> None /\ lookup t NONBONDED2 <> None /\
  poly_terms QA t <> None /\ 0 < chi_code QA t (a_ofZ QA 1).
Proof. exact supported_complete. Qed.

(* Mol2Molecule.assign_parameters end to end (code's tables, damping 0.778,
   scaling 1.56, any cycle count >= 1): whenever it succeeds there is one
   (radius, charge) per atom, each radius is the positive table entry of the
   atom's type, and the charges sum to the sum of Mol2Atom.formal_charge *)
Theorem C16_assign_parameters_sound :
  forall (m : mol) (ncyc : nat) (ps : list (Z * Q)),
  ncyc <> 0%nat ->
  assign_parameters_n QA m ncyc = Some ps ->
  exists fc2,
    formal_charges2 m = Some fc2 /\
    length ps = m_n m /\
    (forall p, In p ps -> (0 < fst p)%Z) /\
    map (fun p => Some (fst p)) ps = map radius_of (m_types m) /\
    Qsum (map snd ps) == Qsum (map (fun z => half QA z) fc2).
Proof. exact assign_parameters_sound. Qed.

(* The ligand loop of main.non_trivial (pdb2pqr from commit 30237b0 on, the
   repair of finding C16-F4), for ALL residue lists, MOL2 residue names [lnames], MOL2 heavy-atom
   names [heavy], MOL2 atoms [lig] and force-field outcomes (hit or miss, on
   ligand atoms too).  [names] = the residue names the code selects
   ([lig_names]: the MOL2 residue names if some residue of the structure
   carries one, otherwise the names of the residues that consist of exactly the
   MOL2 file's heavy atoms plus any of its hydrogens).  Then
   (1) every written atom outside the selected residues carries the force
       field's parameters (waters, ions, other hetero groups are never touched,
       whatever their atoms are called),
   (2) no atom is written twice,
   (3) every atom of a selected residue (up to its first ATOM record) that the
       MOL2 file names is written with the MOL2 parameters, exactly once. *)
Theorem C16_transfer_only_ligand :
  forall (P : Type) (lnames heavy : list string) (lig : list (string * P)) (rs : list (presidue P)),
  NoDup (map pa_id (all_atoms rs)) ->
  let names := lig_names lnames heavy lig rs in
  (forall i w, ~ In i (ligand_ids names rs) -> In (i, w) (written lnames heavy lig rs) -> w = ff_param rs i) /\
  NoDup (map fst (written lnames heavy lig rs)) /\
  (forall r a p, In r rs -> selected names r = true -> In a (het_prefix (pr_atoms r)) ->
                 lookup (pa_name a) lig = Some p ->
                 In (pa_id a, Some p) (written lnames heavy lig rs) /\
                 count_occ Nat.eq_dec (map fst (written lnames heavy lig rs)) (pa_id a) = 1%nat).
Proof. intros P lnames heavy lig rs Hnd. exact (transfer_only_ligand_holds lig lnames heavy rs Hnd). Qed.

(* the selection, spelled out.  If the MOL2 residue name occurs in the
   structure, every atom of a residue with another name is written with exactly
   what the force field gave it ... *)
Theorem C16_transfer_other_residues_untouched :
  forall (P : Type) (lnames heavy : list string) (lig : list (string * P)) (rs : list (presidue P))
         (r : presidue P) (a : patom P) (w : option P),
  NoDup (map pa_id (all_atoms rs)) ->
  existsb (fun r : presidue P => smem (pr_name r) lnames) rs = true ->
  In r rs -> ~ In (pr_name r) lnames -> In a (pr_atoms r) ->
  In (pa_id a, w) (written lnames heavy lig rs) -> w = pa_ff a.
Proof. intros P lnames heavy lig. exact (other_residues_untouched lig lnames heavy). Qed.

(* ... and if it does not (placeholder residue name in the MOL2 file), so is
   every residue unless it bears the name of a residue that the MOL2 file
   describes atom by atom *)
Theorem C16_transfer_other_residues_untouched_fallback :
  forall (P : Type) (lnames heavy : list string) (lig : list (string * P)) (rs : list (presidue P))
         (r : presidue P) (a : patom P) (w : option P),
  NoDup (map pa_id (all_atoms rs)) ->
  existsb (fun r : presidue P => smem (pr_name r) lnames) rs = false ->
  In r rs ->
  (forall r' : presidue P, In r' rs -> pr_name r' = pr_name r -> describes heavy lig r' = false) ->
  In a (pr_atoms r) ->
  In (pa_id a, w) (written lnames heavy lig rs) -> w = pa_ff a.
Proof. intros P lnames heavy lig. exact (other_residues_untouched_fallback lig lnames heavy). Qed.

(* Finding C16-F4.  [written_old] is the loop of pdb2pqr BEFORE commit 30237b0
   (every HETATM-led residue visited, every matched atom appended); it is NOT
   pdb2pqr as it is.  Witness: water H1 vs ligand H1 - a non-ligand atom is
   written with the ligand's parameters, and written twice. *)
Theorem C16_transfer_old_loop_refuted :
  exists (lnames : list string) (lig : list (string * (Z * Z))) (rs : list (presidue (Z * Z))),
    NoDup (map pa_id (all_atoms rs)) /\
    (exists i w, ~ In i (ligand_ids lnames rs) /\ In (i, w) (written_old lig rs) /\ w <> ff_param rs i) /\
    ~ NoDup (map fst (written_old lig rs)).
Proof. exact transfer_old_loop_refuted. Qed.

(* Mol2Atom.formal_charge (all decision rules, including the order-dependent
   phosphate rule, which walks BOND lines, not atoms) does not depend on the
   position of the atoms in the file: moving atom i to position sigma i and
   rewriting the bond endpoints gives the same formal charge *)
Theorem C16_formal_charge_equivariant :
  forall (m : mol) (sigma tau : nat -> nat),
  (forall i, (i < m_n m)%nat -> (sigma i < m_n m)%nat) ->
  (forall i, (i < m_n m)%nat -> tau (sigma i) = i) ->
  mol_ok m = true ->
  forall i, (i < m_n m)%nat ->
  formal_charge2 (relabel m sigma tau) (sigma i) = formal_charge2 m i.
Proof. exact formal_charge_equivariant. Qed.

(* non-vacuity: acetate (tests/data/acetate.mol2: O.co2=C.2(=O.co2)-C.3H3) is
   accepted, its doubled formal charges are -1, 0, -1, 0, 0, 0, 0 (each O.co2
   carries -1/2), after two cycles every atom carries a non-zero charge and
   they sum to -1; a 3-cycle of the positions satisfies the permutation
   hypotheses and moves the formal charges with the atoms; the phosphate rule;
   the transfer loop on the input of finding C16-F4 (name match, placeholder
   name, force-field hit on a ligand atom) *)
Example C16_nonvacuous :
  let m := mkmol ["O.co2"; "C.2"; "O.co2"; "C.3"; "H"; "H"; "H"]%string
                 [(0, 1, Double); (1, 2, Double); (1, 3, Single); (3, 4, Single);
                  (3, 5, Single); (3, 6, Single)]%nat in
  mol_ok m = true /\
  formal_charges2 m = Some [-1; 0; -1; 0; 0; 0; 0]%Z /\
  (exists ps, assign_parameters_n QA m 2 = Some ps /\
              forallb (fun p => negb (Qeq_bool (snd p) 0)) ps = true /\
              Qeq_bool (Qsum (map snd ps)) (-1 # 1) = true) /\
  (let sigma := fun i => match i with 0 => 1 | 1 => 2 | 2 => 0 | k => k end%nat in
   let tau := fun i => match i with 1 => 0 | 2 => 1 | 0 => 2 | k => k end%nat in
   forallb (fun i => (sigma i <? 7)%nat && (tau i <? 7)%nat && (tau (sigma i) =? i)%nat) (seq 0 7) = true /\
   map (formal_charge2 (relabel m sigma tau)) (seq 0 7) = map Some [-1; -1; 0; 0; 0; 0; 0]%Z) /\
  (* the phosphate rule fires: O=P(O)(O)(O), the first single-bonded O.3 in P's bond list gets -1 *)
  formal_charges2 (mkmol ["P.3"; "O.2"; "O.3"; "O.3"; "O.3"]%string
                         [(0, 1, Double); (3, 0, Single); (0, 2, Single); (0, 4, Single)]%nat)
    = Some [0; 0; 0; -2; 0]%Z /\
  (* the input of finding C16-F4 through [written]: the water keeps the force
     field's parameters and is written once, the ligand gets the MOL2's *)
  written ["LIG"%string] ["C1"%string] f4_lig f4_complex =
    [(0%nat, Some (-4157, 18240)%Z); (1%nat, Some (337, 19080)%Z); (4%nat, Some (-8340, 17683)%Z);
     (5%nat, Some (4170, 0)%Z); (6%nat, Some (4170, 0)%Z);
     (2%nat, Some (-1200, 18700)%Z); (3%nat, Some (650, 11000)%Z)] /\
  (* placeholder residue name in the MOL2 file: the ligand is found by its atoms, same result *)
  written ["UNK"%string] ["C1"%string] f4_lig f4_complex = written ["LIG"%string] ["C1"%string] f4_lig f4_complex /\
  (* a ligand atom the force field already matched is overwritten but not appended again *)
  written ["LIG"%string] ["C1"%string] f4_lig
          [mkpres "LIG"%string [mkpatom 2%nat true "C1"%string (Some (1, 2)%Z); mkpatom 3%nat true "H1"%string None]]
    = [(2%nat, Some (-1200, 18700)%Z); (3%nat, Some (650, 11000)%Z)].
Proof.
  cbv zeta. split; [vm_compute; reflexivity|]. split; [vm_compute; reflexivity|].
  split.
  - eexists. split; [vm_compute; reflexivity|]. split; vm_compute; reflexivity.
  - split; [split; vm_compute; reflexivity|]. split; [vm_compute; reflexivity|].
    split; [vm_compute; reflexivity|]. split; vm_compute; reflexivity.
Qed.

(* The theorems from here on go from the MOL2 TEXT to the input of
   assign_parameters (Model/Mol2Read.v: Mol2Molecule.read / parse_atoms /
   parse_bonds at line and word level).  [float_ok] = "float(word) does not
   raise" is an arbitrary oracle.  [co] = true is pdb2pqr as it is (the charge
   word of an ATOM record is read `if len(words) > 8`); [co] = false is pdb2pqr
   before commit 26073e7, the repair of finding C16-F5 (`if len(line) > 8`). *)

(* permuting the atoms of a molecule permutes the (radius, charge) list of
   assign_parameters exactly and raises iff the original raises: the
   composition of C16_peoe_equivariant, C16_formal_charge_equivariant and the
   per-type radius lookup, for ALL molecules and cycle counts (exact field) *)
Theorem C16_assign_parameters_relabel :
  forall (m : mol) (ncyc : nat) (sigma tau : nat -> nat),
  (forall i, (i < m_n m)%nat -> (sigma i < m_n m)%nat) ->
  (forall k, (k < m_n m)%nat -> (tau k < m_n m)%nat) ->
  (forall i, (i < m_n m)%nat -> tau (sigma i) = i) ->
  (forall k, (k < m_n m)%nat -> sigma (tau k) = k) ->
  mol_ok m = true ->
  match assign_parameters_n QA m ncyc, assign_parameters_n QA (relabel m sigma tau) ncyc with
  | Some ps, Some ps' => forall i, (i < m_n m)%nat -> nth_error ps' (sigma i) = nth_error ps i
  | None, None => True
  | _, _ => False
  end.
Proof. exact assign_parameters_relabel. Qed.

(* THE ROUND TRIP, for ALL molecules of the reader's domain: every field a
   blank-free word without '@', coordinates (and charge) numbers for float(),
   Sybyl type in normalised spelling, residue name <= 4 characters, distinct
   atom names, bond endpoints among the atoms, bond types 1 2 3 ar - ANY number
   of atoms and bonds, connectivity, multiple and self bonds, atom ids and bond
   ids - and for every header that has no ATOM marker and every trailer:
   reading the canonical Tripos rendering returns exactly the molecule.  So the
   reader neither drops, duplicates, reorders nor re-wires atoms or bonds, and
   no column is taken for another (name, x y z, type, subst id, subst name,
   charge; bond id, both atom ids, bond type). *)
Theorem C16_mol2_read_roundtrip :
  forall (float_ok : string -> bool) (co : bool) (hdr trailer : list string) (m : molecule),
  Forall (fun l => contains marker_atom l = false) hdr ->
  wf_molecule float_ok co m ->
  mol_of_text float_ok co (mol2_text_with hdr trailer m) = Ok m /\
  mol_of_text float_ok co (mol2_text m) = Ok m /\
  (forall i j, In j (nbrs (m_pairs (to_mol m)) i) <-> In i (nbrs (m_pairs (to_mol m)) j)).
Proof.
  intros float_ok co hdr trailer m Hh Hwf.
  split; [exact (mol2_read_roundtrip_with float_ok co hdr trailer m Hh Hwf)|].
  split; [exact (mol2_read_roundtrip float_ok co m Hwf) | exact (adjacency_symmetric m)].
Qed.

(* ATOM records permuted (the atom at position i moves to sigma i, ids
   renumbered 1..n) with the bond atom ids renumbered consistently, BOND lines
   in their order: the reader returns the permuted molecule - every atom with
   its own name, type, coordinates and charge at its new place, and the input
   of assign_parameters is the molecule [relabel (to_mol m) sigma tau] that
   C16_assign_parameters_relabel and C16_formal_charge_equivariant speak about *)
Theorem C16_mol2_order_equivariance :
  forall (float_ok : string -> bool) (co : bool) (m : molecule) (sigma tau : nat -> nat),
  let n := length (ml_atoms m) in
  (forall i, (i < n)%nat -> (sigma i < n)%nat) ->
  (forall k, (k < n)%nat -> (tau k < n)%nat) ->
  (forall i, (i < n)%nat -> tau (sigma i) = i) ->
  (forall k, (k < n)%nat -> sigma (tau k) = k) ->
  wf_molecule float_ok co m ->
  mol_of_text float_ok co (mol2_text (permute m sigma tau)) = Ok (permute m sigma tau) /\
  to_mol (permute m sigma tau) = relabel (to_mol m) sigma tau /\
  (forall i, (i < n)%nat ->
     let a := nth i (ml_atoms m) dummy_atom in
     let a' := nth (sigma i) (ml_atoms (permute m sigma tau)) dummy_atom in
     ra_name a' = ra_name a /\ ra_type a' = ra_type a /\ ra_x a' = ra_x a /\ ra_y a' = ra_y a /\
     ra_z a' = ra_z a /\ ra_charge a' = ra_charge a /\ ra_serial a' = Z.of_nat (S (sigma i))).
Proof. intros float_ok co m sigma tau n. exact (mol2_order_equivariance float_ok co m sigma tau). Qed.

(* TEXT -> CHARGES is independent of the order of the ATOM records: the
   (radius, charge) assigned to an atom from the reordered text is IDENTICAL
   to the one assigned from the original text, and one text is refused iff the
   other is.  PARTIAL in two declared respects: (a) exact arithmetic (instance
   QA; the binary64 instance is tied to CPython bit for bit by the harness, and
   the harness runs the same metamorphic test on the real code), (b) texts in
   canonical rendering (other spellings of the same records - column widths,
   tabs, CRLF, comment lines, extra fields - are covered by the tie).  No
   tie-freeness condition is needed HERE: BOND lines keep their order, and the
   only order-dependent rule of formal_charge (phosphate) walks BOND lines,
   not atoms.  Reordering BOND lines is a different statement, not made here:
   the phosphate rule charges the first single-bonded oxygen in P's bond list,
   so that order can move the charge between the equivalent oxygens. *)
Theorem C16_text_order_independent_partial :
  forall (float_ok : string -> bool) (co : bool) (m : molecule) (sigma tau : nat -> nat) (ncyc : nat),
  let n := length (ml_atoms m) in
  (forall i, (i < n)%nat -> (sigma i < n)%nat) ->
  (forall k, (k < n)%nat -> (tau k < n)%nat) ->
  (forall i, (i < n)%nat -> tau (sigma i) = i) ->
  (forall k, (k < n)%nat -> sigma (tau k) = k) ->
  wf_molecule float_ok co m ->
  exists m1 m2,
    mol_of_text float_ok co (mol2_text m) = Ok m1 /\
    mol_of_text float_ok co (mol2_text (permute m sigma tau)) = Ok m2 /\
    match assign_parameters_n QA (to_mol m1) ncyc, assign_parameters_n QA (to_mol m2) ncyc with
    | Some ps, Some ps' => forall i, (i < n)%nat -> nth_error ps' (sigma i) = nth_error ps i
    | None, None => True
    | _, _ => False
    end.
Proof.
  intros float_ok co m sigma tau ncyc n H1 H2 H3 H4 Hwf.
  exact (text_order_independent float_ok co m sigma tau H1 H2 H3 H4 Hwf ncyc).
Qed.

(* renaming the atoms (any distinct blank-free names without '@'): the text is
   read back as the renamed molecule; the input of assign_parameters - hence
   every radius and charge, in any arithmetic - does not change *)
Theorem C16_mol2_names_irrelevant :
  forall (float_ok : string -> bool) (co : bool) (m : molecule) (names : list string),
  wf_molecule float_ok co m ->
  length names = length (ml_atoms m) -> Forall (fun w => good_word w = true) names -> NoDup names ->
  mol_of_text float_ok co (mol2_text (rename m names)) = Ok (rename m names) /\
  to_mol (rename m names) = to_mol m /\
  map ra_name (ml_atoms (rename m names)) = names /\
  (forall A (ops : Arith A) ncyc,
     assign_parameters_n ops (to_mol (rename m names)) ncyc = assign_parameters_n ops (to_mol m) ncyc).
Proof. exact mol2_names_irrelevant. Qed.

(* FULL STATEMENT, refuted: "in an accepted file every bond atom id k denotes
   the k-th ATOM record".  Witness: BOND record `1 1 0 1` in a 3-atom molecule
   is accepted and bonds atom 1 to atom 3 (atom_names[0 - 1]).  Atom id 0 is not
   a MOL2 atom id, so the input is outside the property's quantifier: an
   OBSERVATION about error handling, not a finding. *)
Theorem C16_mol2_bond_id_zero_refuted :
  exists (lines : list string) (m : molecule),
    In "1 1 0 1"%string lines /\
    mol_of_text py_float_ok false lines = Ok m /\
    length (ml_atoms m) = 3%nat /\
    ml_bonds m = [mkrbond 1 0 2 Single].
Proof. exact mol2_bond_id_zero_refuted. Qed.

(* ... the guard: an accepted BOND record with atom ids in 1..n denotes exactly
   those ATOM records and its type word is one of 1 2 3 ar; the only other
   accepted ids are -n < id <= 0, counted from the end *)
Theorem C16_mol2_bond_ids_partial :
  forall (n : nat) (w0 w1 w2 w3 : string) (more : list string) (b : rbond) (i1 i2 : Z),
  parse_bond_words n (w0 :: w1 :: w2 :: w3 :: more) = Ok b ->
  PqrFormat.py_int w1 = Some i1 -> PqrFormat.py_int w2 = Some i2 ->
  (((1 <= i1 <= Z.of_nat n)%Z /\ Z.of_nat (rb_a1 b) = (i1 - 1)%Z) \/
   ((- Z.of_nat n < i1 <= 0)%Z /\ Z.of_nat (rb_a1 b) = (Z.of_nat n + i1 - 1)%Z)) /\
  (((1 <= i2 <= Z.of_nat n)%Z /\ Z.of_nat (rb_a2 b) = (i2 - 1)%Z) \/
   ((- Z.of_nat n < i2 <= 0)%Z /\ Z.of_nat (rb_a2 b) = (Z.of_nat n + i2 - 1)%Z)) /\
  bond_word w3 = Ok (rb_type b).
Proof. exact mol2_bond_ids_partial. Qed.

(* FULL STATEMENT "every MOL2 molecule with supported fields is read", refuted
   for pdb2pqr before commit 26073e7 (co = false).  The charge field of an ATOM
   record is optional in the Tripos format and the code guards the access;
   before that commit with `len(line) > 8`, the number of CHARACTERS: an 8-word
   record raised IndexError (finding C16-F5).  With `len(words) > 8` (co = true,
   pdb2pqr as it is) the same text is read back, as an instance of the round
   trip. *)
Theorem C16_mol2_eight_words_refuted :
  wf_molecule py_float_ok true ethanolish_nocharge /\
  mol_of_text py_float_ok false (mol2_text ethanolish_nocharge) = Raise IndexError /\
  mol_of_text py_float_ok true (mol2_text ethanolish_nocharge) = Ok ethanolish_nocharge.
Proof. exact mol2_eight_words_refuted. Qed.

(* non-vacuity of the text-level theorems: a 3-atom molecule in the domain
   already for co = false (every ATOM record has its charge word; the domain
   for co = true contains it), a 3-cycle of its atoms satisfying the four permutation
   hypotheses, the canonical text of the permuted molecule, and the charges
   from both texts (2 cycles, exact): succeeded, non-zero, moved with the atoms *)
Example C16_mol2_nonvacuous :
  let sigma := fun i => match i with 0 => 1 | 1 => 2 | 2 => 0 | k => k end%nat in
  let tau := fun i => match i with 1 => 0 | 2 => 1 | 0 => 2 | k => k end%nat in
  wf_molecule py_float_ok false ethanolish /\
  forallb (fun i => (sigma i <? 3)%nat && (tau i <? 3)%nat && (tau (sigma i) =? i)%nat && (sigma (tau i) =? i)%nat)
          (seq 0 3) = true /\
  mol2_text (permute ethanolish sigma tau) =
    ["@<TRIPOS>MOLECULE"; "ligand"; "3 2 1 0 0"; "SMALL"; "USER_CHARGES"; ""; "@<TRIPOS>ATOM";
     "1 H1 2.0 0.5 0.0 H 1 LIG 0.0"; "2 C1 0.0 0.0 0.0 C.3 1 LIG 0.0"; "3 O1 1.4 0.0 0.0 O.3 1 LIG 0.0";
     "@<TRIPOS>BOND"; "1 2 3 1"; "2 3 1 1"; "@<TRIPOS>SUBSTRUCTURE"; "1 LIG 1 TEMP 0 **** **** 0 ROOT"]%string /\
  (exists ps ps', assign_parameters_n QA (to_mol ethanolish) 2 = Some ps /\
                  assign_parameters_n QA (to_mol (permute ethanolish sigma tau)) 2 = Some ps' /\
                  forallb (fun p => negb (Qeq_bool (snd p) 0)) ps = true /\
                  ps <> ps' /\ nth_error ps' 1 = nth_error ps 0) /\
  mol_of_string py_float_ok false
    ("@<TRIPOS>MOLECULE" ++ nl ++ "x" ++ nl ++ "@<TRIPOS>ATOM" ++ nl ++ "1 C1 0 0 0 c.3 1 LIGAND 0" ++ nl)%string
    = Ok (mkmolecule [mkratom 1 "C1" "0" "0" "0" "C.3" 1 "LIGA" (Some "0"%string)] []).
Proof.
  intros sigma tau. split; [exact ethanolish_wf|]. split; [vm_compute; reflexivity|]. split; [vm_compute; reflexivity|].
  split; [|vm_compute; reflexivity].
  (* the run on the original is evaluated; the run on the permuted molecule follows from it *)
  assert (E : exists ps, assign_parameters_n QA (to_mol ethanolish) 2 = Some ps /\
                         forallb (fun p => negb (Qeq_bool (snd p) 0)) ps = true /\ nth_error ps 1 <> nth_error ps 0)
    by (eexists; split; [vm_compute; reflexivity | split; [vm_compute; reflexivity | discriminate]]).
  destruct E as [ps [E [Hnz Hne]]].
  destruct (assign_parameters_relabel_Some (to_mol ethanolish) 2 sigma tau ps) as [ps' [E' H]];
    [intros [|[|[|i]]] Hi; cbv in Hi |- *; lia .. | reflexivity | exact E |].
  rewrite <- to_mol_permute in E'.
  assert (H0 : nth_error ps' 1 = nth_error ps 0) by (apply (H 0%nat); cbn; lia).
  exists ps, ps'. repeat (split; [assumption|]). split; [|exact H0].
  intros <-. exact (Hne H0).
Qed.

(* Mol2Atom.assign_radius / Mol2Molecule.assign_radii for ALL pairs of tables
   (primary, secondary) and ALL types: the radius is the primary table's entry
   when it has one - under the Sybyl type first, then under the upper-cased
   element -, otherwise the secondary table's by the same rule; KeyError iff
   neither table has either key; for an atom the primary table covers the
   secondary table is irrelevant.  The default arguments give [radius_of]. *)
Theorem C16_radius_rule :
  forall (p s : list (string * Z)) (t : string),
  let e := upper (before_dot t) in
  (forall r, lookup t p = Some r -> radius_from p s t = Some r) /\
  (lookup t p = None -> forall r, lookup e p = Some r -> radius_from p s t = Some r) /\
  (lookup t p = None -> lookup e p = None -> radius_from p s t = radius_from s [] t) /\
  (radius_from p s t = None <->
     lookup t p = None /\ lookup e p = None /\ lookup t s = None /\ lookup e s = None) /\
  (forall s', (lookup t p <> None \/ lookup e p <> None) -> radius_from p s t = radius_from p s' t).
Proof. exact radius_rule. Qed.

Theorem C16_radius_default_tables : forall t, radius_of t = radius_from ZAP9 BONDI t.
Proof. exact radius_of_from. Qed.

(* non-vacuity: Bondi as primary, ZAP9 as backup: O.co2 is found under the
   element in the PRIMARY table (1.52), not under its type in the backup (1.76);
   with the tables the other way round it is 1.76; Br only from Bondi *)
Example C16_radius_rule_nonvacuous :
  radius_from BONDI ZAP9 "O.co2"%string = Some 152%Z /\ radius_from ZAP9 BONDI "O.co2"%string = Some 176%Z /\
  radius_from ZAP9 BONDI "Br"%string = Some 185%Z /\ radius_from ZAP9 [] "Br"%string = None /\
  radius_from [("C.3"%string, 190%Z)] BONDI "C.3"%string = Some 190%Z.
Proof. vm_compute. repeat split. Qed.

Print Assumptions C16_QA_laws.
Print Assumptions C16_peoe_conserves.
Print Assumptions C16_peoe_zero_cycles.
Print Assumptions C16_peoe_equivariant.
Print Assumptions C16_radius_positive.
Print Assumptions C16_supported_complete.
Print Assumptions C16_assign_parameters_sound.
Print Assumptions C16_transfer_only_ligand.
Print Assumptions C16_transfer_other_residues_untouched.
Print Assumptions C16_transfer_other_residues_untouched_fallback.
Print Assumptions C16_transfer_old_loop_refuted.
Print Assumptions C16_formal_charge_equivariant.
Print Assumptions C16_nonvacuous.
Print Assumptions C16_assign_parameters_relabel.
Print Assumptions C16_mol2_read_roundtrip.
Print Assumptions C16_mol2_order_equivariance.
Print Assumptions C16_text_order_independent_partial.
Print Assumptions C16_mol2_names_irrelevant.
Print Assumptions C16_mol2_bond_id_zero_refuted.
Print Assumptions C16_mol2_bond_ids_partial.
Print Assumptions C16_mol2_eight_words_refuted.
Print Assumptions C16_mol2_nonvacuous.
Print Assumptions C16_radius_rule.
Print Assumptions C16_radius_default_tables.
Print Assumptions C16_radius_rule_nonvacuous.
