(* The flip motion over the reals: the rotation of Debump.set_dihedral_angle
   (Model/Quatfit.v rotate_about) by 180 degrees, c = cos = -1, s = sin = 0. *)
From Coq Require Import Reals List Lra.
From PV Require Import Model.ForceField Model.Topology Model.Moves Model.Quatfit Model.Flip.
From PV Require Import Proofs.Quatfit Proofs.Moves Proofs.Flip.
Import ListNotations.
Local Open Scope R_scope.

(* rotate p by 180 degrees about the line through o (the atom b) and a (the pivot c) *)
Definition rot180 (o a p : Rpt) : Rpt := rotate_about RA (-1) 0 o a p.

(* Both axis atoms are fixed points of a rotation about the axis, by any angle: the image of an
   axis atom is at distance 0 from it. *)
Lemma rotate_about_fixes_ends c s o a :
  dot3 RA (psub RA a o) (psub RA a o) <> 0 -> c * c + s * s = 1 ->
  rotate_about RA c s o a o = o /\ rotate_about RA c s o a a = a.
Proof.
  intros H Hcs. split; apply dist2_zero.
  - rewrite (proj1 (set_dihedral_distances c s o a o o 0 H Hcs)). apply dist2_self.
  - rewrite (proj1 (proj2 (set_dihedral_distances c s o a a a 0 H Hcs))). apply dist2_self.
Qed.

(* flipping twice is the identity: two half turns about one axis add up to a full turn *)
Lemma rot180_involution o a p :
  dot3 RA (psub RA a o) (psub RA a o) <> 0 -> rot180 o a (rot180 o a p) = p.
Proof.
  intros H. unfold rot180, rotate_about.
  rewrite psub_padd, chi_mat_add by (apply normalize_unit; exact H).
  replace (-1 * -1 - 0 * 0) with 1 by ring. replace (0 * -1 + -1 * 0) with 0 by ring.
  rewrite chi_mat_id. apply padd_psub.
Qed.

Theorem rot180_facts (o a : Rpt) :
  dot3 RA (psub RA a o) (psub RA a o) <> 0 ->
  (forall p, rot180 o a (rot180 o a p) = p) /\
  (forall p q, dist2 (rot180 o a p) (rot180 o a q) = dist2 p q) /\
  rot180 o a o = o /\ rot180 o a a = a.
Proof.
  intros H. assert (Hcs : -1 * -1 + 0 * 0 = 1) by lra.
  split; [intros p; apply rot180_involution; exact H|].
  split; [intros p q; apply rotate_about_isometry; assumption | apply rotate_about_fixes_ends; assumption].
Qed.

(* both outcomes of a flip are rigid: Debump.set_dihedral_angle's rotation by 180 degrees about the
   b - c bond, residue.atoms over R^3 *)
Theorem flip_rigid_R (keep : id -> bool) (g : graph) (b c : id) (M : list id) (HO : id) (is_c_term : bool)
        (atoms0 : list (fatom Rpt)) (pb pc : Rpt) (ops : list fop) :
  (forall a, In a atoms0 -> fa_flip a = false) ->
  (is_c_term = false \/ mem HO M = false) ->
  coords_of atoms0 b = Some pb -> coords_of atoms0 c = Some pc ->
  dot3 RA (psub RA pc pb) (psub RA pc pb) <> 0 ->
  rigid_ok keep g b c M = true ->
  let final := coords_of (fst (flip_run (rot180 pb pc) M (copy_names HO is_c_term M) ops atoms0)) in
  (forall u v pu pv, In u (nodes g) -> In v (nbrs g u) -> keep u = true -> keep v = true ->
     coords_of atoms0 u = Some pu -> coords_of atoms0 v = Some pv ->
     exists pu' pv', final u = Some pu' /\ final v = Some pv' /\ dist2 pu' pv' = dist2 pu pv) /\
  (forall u v w pu pw, In v (nodes g) -> In u (nbrs g v) -> In w (nbrs g v) ->
     keep u = true -> keep v = true -> keep w = true ->
     coords_of atoms0 u = Some pu -> coords_of atoms0 w = Some pw ->
     exists pu' pw', final u = Some pu' /\ final w = Some pw' /\ dist2 pu' pw' = dist2 pu pw).
Proof.
  intros Hp Hho Hb Hc Hne Hok. destruct (rot180_facts pb pc Hne) as (_ & Hiso & Fb & Fc).
  apply (flip_rigid dist2 (rot180 pb pc) Hiso keep g b c M
           (copy_names HO is_c_term M) atoms0 Hp
           (fun n Hn _ => copy_names_cover HO is_c_term M n Hho Hn)
           pb pc Hb Hc Fb Fc Hok).
Qed.
