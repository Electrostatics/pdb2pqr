(* C07, file layer: the three line terminators (LF, CRLF, lone CR) and any mixture
   of them give the same readline() chunks, hence the same ingest; one leading
   UTF-8 byte order mark is not part of the text. *)
From Coq Require Import String Ascii List Arith NArith ZArith Bool Lia.
From PV Require Import Lib.Strings Lib.Decimal Model.PdbRead Model.Group.
Import ListNotations.
Local Open Scope string_scope.
Local Open Scope list_scope.

Inductive eol := LF | CRLF | CR.

Definition eol_str (e : eol) : string :=
  match e with
  | LF => String lf EmptyString
  | CRLF => String cr (String lf EmptyString)
  | CR => String cr EmptyString
  end.

(* the file: bodies with their terminators, then a last line without terminator *)
Fixpoint file_text (ls : list (string * eol)) (last : string) : string :=
  match ls with
  | [] => last
  | (b, e) :: r => (b ++ eol_str e ++ file_text r last)%string
  end.

Definition no_eol (b : string) : bool :=
  all_chars (fun c => negb (Ascii.eqb c cr) && negb (Ascii.eqb c lf)) b.

Definition starts_lf (s : string) : bool :=
  match s with String c _ => Ascii.eqb c lf | EmptyString => false end.

(* no lone CR is directly followed by LF (that pair IS a CRLF terminator): true
   e.g. when no empty line terminated by LF follows a CR-terminated line *)
Fixpoint seq_ok (ls : list (string * eol)) (last : string) : bool :=
  match ls with
  | [] => true
  | (b, e) :: r =>
      (match e with CR => negb (starts_lf (file_text r last)) | _ => true end) && seq_ok r last
  end.

Lemma univ_body b rest : no_eol b = true -> univ (b ++ rest) = (b ++ univ rest)%string.
Proof.
  induction b as [|c b IH]; intros H; [reflexivity|].
  simpl in H. apply andb_true_iff in H as [Hc Hb]. apply andb_true_iff in Hc as [H1 _].
  apply negb_true_iff in H1. cbn [append univ]. rewrite H1. f_equal. apply IH. exact Hb.
Qed.

Lemma univ_lf rest : univ (String lf rest) = String lf (univ rest).
Proof. reflexivity. Qed.

Lemma univ_crlf rest : univ (String cr (String lf rest)) = String lf (univ rest).
Proof. reflexivity. Qed.

Lemma univ_cr rest : starts_lf rest = false -> univ (String cr rest) = String lf (univ rest).
Proof.
  intros H. destruct rest as [|d r]; [reflexivity|]. simpl in H.
  change (univ (String cr (String d r))) with
    (if Ascii.eqb d lf then String lf (univ r) else String lf (univ (String d r))).
  rewrite H. reflexivity.
Qed.

Definition to_lf (ls : list (string * eol)) : list (string * eol) := map (fun p => (fst p, LF)) ls.

Theorem univ_file_text ls last :
  forallb no_eol (map fst ls) = true -> no_eol last = true -> seq_ok ls last = true ->
  univ (file_text ls last) = file_text (to_lf ls) last.
Proof.
  intros Hb Hl. induction ls as [|[b e] r IH]; intros Hs.
  - simpl. rewrite <- (app_empty_r last) at 1. rewrite (univ_body last "" Hl). simpl. apply app_empty_r.
  - cbn [map fst forallb] in Hb. apply andb_true_iff in Hb as [Hb1 Hb2].
    cbn [seq_ok] in Hs. apply andb_true_iff in Hs as [He Hs].
    cbn [file_text to_lf map fst]. rewrite (univ_body b _ Hb1). f_equal.
    fold (to_lf r). destruct e; cbn [eol_str append].
    + rewrite univ_lf. f_equal. apply IH; assumption.
    + rewrite univ_crlf. f_equal. apply IH; assumption.
    + apply negb_true_iff in He. rewrite (univ_cr _ He). f_equal. apply IH; assumption.
Qed.

Lemma to_lf_bodies ls ls' : map fst ls = map fst ls' -> to_lf ls = to_lf ls'.
Proof.
  unfold to_lf. intros H.
  rewrite <- (map_map fst (fun b => (b, LF)) ls), <- (map_map fst (fun b => (b, LF)) ls'), H.
  reflexivity.
Qed.

(* the chunks do not depend on the terminators *)
Theorem chunks_terminators ls ls' last :
  map fst ls = map fst ls' ->
  forallb no_eol (map fst ls) = true -> no_eol last = true ->
  seq_ok ls last = true -> seq_ok ls' last = true ->
  chunks_of_text (file_text ls last) = chunks_of_text (file_text ls' last).
Proof.
  intros Hm Hb Hl H1 H2. unfold chunks_of_text.
  rewrite (univ_file_text ls last Hb Hl H1).
  rewrite (univ_file_text ls' last) by (try rewrite <- Hm; assumption).
  rewrite (to_lf_bodies _ _ Hm). reflexivity.
Qed.

Theorem line_endings_irrelevant fok tab d ls ls' last :
  map fst ls = map fst ls' ->
  forallb no_eol (map fst ls) = true -> no_eol last = true ->
  seq_ok ls last = true -> seq_ok ls' last = true ->
  ingest fok tab d (chunks_of_text (file_text ls last)) =
  ingest fok tab d (chunks_of_text (file_text ls' last)).
Proof. intros. f_equal. apply chunks_terminators; assumption. Qed.

(* the byte order mark of a UTF-8 file is not text (encoding="utf-8-sig") *)
Theorem chunks_bom t : chunks_of_bytes (bom_bytes ++ t)%string = chunks_of_text t.
Proof. reflexivity. Qed.

Theorem chunks_no_bom t : prefix_of bom_bytes t = false -> chunks_of_bytes t = chunks_of_text t.
Proof. intros H. unfold chunks_of_bytes, strip_bom. rewrite H. reflexivity. Qed.

Lemma no_eol_starts s : no_eol s = true -> starts_lf s = false.
Proof.
  destruct s as [|c s]; [reflexivity|]. simpl. intros H.
  apply andb_true_iff in H as [H _]. apply andb_true_iff in H as [_ H]. apply negb_true_iff; exact H.
Qed.

(* seq_ok holds whenever no line of the file is empty (whitespace-only lines are fine) *)
Lemma seq_ok_nonempty ls last :
  forallb (fun b => negb (is_empty b) && no_eol b) (map fst ls) = true -> no_eol last = true ->
  seq_ok ls last = true.
Proof.
  intros Hb Hl. induction ls as [|[b e] r IH]; [reflexivity|].
  cbn [map fst forallb] in Hb. apply andb_true_iff in Hb as [_ Hr].
  cbn [seq_ok]. rewrite (IH Hr), andb_true_r.
  destruct e; try reflexivity. apply negb_true_iff.
  destruct r as [|[b2 e2] r2]; [apply no_eol_starts; exact Hl|].
  cbn [map fst forallb] in Hr. apply andb_true_iff in Hr as [H2 _]. apply andb_true_iff in H2 as [Hne Hno].
  destruct b2 as [|c b2]; [discriminate|]. cbn [file_text append].
  exact (no_eol_starts (String c b2) Hno).
Qed.

(* a classic-Mac file (CR only), and a mixture, against the LF file *)
Definition fl_bodies : list string :=
  [ "ATOM      1  N   ALA A   1      11.000  12.000  13.000  1.00  0.00           N";
    "";
    "ATOM      2  CA  ALA A   1      12.000  12.000  13.000";
    "ATOM      3  N   GLY A   2      13.000  12.000  13.000  1.00  0.00           N" ].

Definition with_eols (es : list eol) : list (string * eol) := combine fl_bodies es.

Lemma fl_example :
  seq_ok (with_eols [CR; CR; CR; CR]) "END" = true /\
  seq_ok (with_eols [CR; CRLF; LF; CR]) "END" = true /\
  seq_ok (with_eols [CR; LF; LF; LF]) "END" = false /\
  chunks_of_bytes (file_text (with_eols [CR; CR; CR; CR]) "END") =
    map (fun b => b ++ nl)%string fl_bodies ++ ["END"] /\
  chunks_of_bytes (bom_bytes ++ file_text (with_eols [CR; CRLF; LF; CR]) "END")%string =
    map (fun b => b ++ nl)%string fl_bodies ++ ["END"] /\
  List.length (chunks_of_bytes (file_text (with_eols [CR; LF; LF; LF]) "END")) = 4.
Proof.
  split; [vm_compute; reflexivity|]. split; [vm_compute; reflexivity|].
  split; [vm_compute; reflexivity|]. split; [vm_compute; reflexivity|]. split; vm_compute; reflexivity.
Qed.
