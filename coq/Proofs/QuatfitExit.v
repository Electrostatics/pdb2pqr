(* C15, third layer: exit of the Jacobi iteration (uses the invariant of
   Proofs/QuatfitJacobi.v): exact exit => unit eigenvectors, the column qtrfit
   selects after the sort is a unit maximiser of q^T A0 q, so the
   [eigen_contract] hypothesis of [fit_exact_image] is discharged; residual
   identity for inexact exits; non-vacuity.  All over R. *)
From Coq Require Import Reals List ZArith Lra Lia Nsatz Psatz Bool.
From PV Require Import Model.Quatfit Proofs.Quatfit Proofs.QuatfitJacobi.
Import ListNotations.
Local Open Scope R_scope.

Definition mv (A : fmat) (r : nat -> R) : nat -> R := fun i => sum4 (fun j => A i j * r j).

(* A applied to column k of V is column k of A V *)
Lemma mv_col : forall (A V : fmat) (i k : nat), mv A (fun j => V j k) i = mmul A V i k.
Proof. reflexivity. Qed.

(* If the off-diagonal part is zero when the sweeps stop (the
   exact-arithmetic idealisation of `onorm/dnorm <= 1e-12`), then
     - V is orthogonal and its columns are eigenvectors of A0 = the symmetric
       matrix given by the upper triangle of the argument, eigenvalues dvec;
     - the vector q that qtrfit takes (column 3 of vmat AFTER the code's
       ascending selection sort) is a unit eigenvector for the value dvec[3]
       of the sorted dvec, that value is >= every eigenvalue found, and q
       maximises r^T A0 r over all unit r. *)
Theorem jacobi_exit_exact : forall (am : Rmat) (nrot : nat), wf4 am ->
  let A0 := A0_of am in
  let st := jsweeps RA nrot (jinit RA am) in
  offzero st ->
  let V := st_V st in
  let d := fun k => st_sym st k k in
  orth V /\
  (forall i k, (i < 4)%nat -> (k < 4)%nat -> mmul A0 V i k = d k * V i k) /\
  let res := jacobi RA am nrot in
  let q := fun i => mget RA (snd res) i 3 in
  let lam := vget RA (fst res) 3 in
  n2 q = 1 /\
  (forall i, (i < 4)%nat -> mv A0 q i = lam * q i) /\
  qf A0 q = lam /\
  (forall k, (k < 4)%nat -> d k <= lam) /\
  (forall r, n2 r = 1 -> qf A0 r <= qf A0 q).
Proof.
  intros am nrot Hwf A0 st Hz V d.
  destruct (jacobi_invariant am nrot Hwf) as (Wst & HO & HC). fold st in Wst, HO, HC. fold A0 in HC. fold V in HO, HC.
  assert (HD : meq (mmul (mT V) (mmul A0 V)) (mdiag d)).
  { apply (meq_trans _ _ _ HC). apply offzero_diag. exact Hz. }
  split; [ exact HO | ].
  split; [ apply eigen_columns; assumption | ].
  intros res q lam.
  destruct (wfst_tab st Wst) as (a & v & dd & Est).
  assert (Eres : res = (snd (fold_left (jsort_step RA) (seq 0 3) (tab4 v, tabv dd)),
                        fst (fold_left (jsort_step RA) (seq 0 3) (tab4 v, tabv dd)))).
  { unfold res, jacobi. fold st. rewrite Est.
    destruct (fold_left (jsort_step RA) (seq 0 3) (tab4 v, tabv dd)) as [vm2 dv2]. reflexivity. }
  destruct (jsort_spec v dd) as (k & Hk & Hmax & Hcol & Hlam).
  assert (EV : forall i j, (i < 4)%nat -> (j < 4)%nat -> V i j = v i j).
  { intros i j Hi Hj. unfold V. rewrite Est. cbn [st_V]. apply mget_tab4; assumption. }
  assert (Ed : forall j, (j < 4)%nat -> d j = dd j).
  { intros j Hj. unfold d. rewrite Est. cbn [st_sym]. rewrite symf_diag. apply vget_tabv; exact Hj. }
  assert (Eq : forall i, (i < 4)%nat -> q i = V i k).
  { intros i Hi. unfold q. rewrite Eres. cbn [snd]. rewrite (Hcol i Hi). symmetry. apply EV; assumption. }
  assert (El : lam = d k).
  { unfold lam. rewrite Eres. cbn [fst]. rewrite Hlam. symmetry. apply Ed; exact Hk. }
  destruct (qf_column A0 V d k HO HD Hk) as [C1 C2].
  assert (N : n2 q = 1).
  { rewrite <- C1. unfold n2, sum4. rewrite !Eq by lia. reflexivity. }
  assert (Q : qf A0 q = lam).
  { rewrite El, <- C2. unfold qf, sum4. rewrite !Eq by lia. reflexivity. }
  split; [ exact N | ].
  split.
  { intros i Hi. rewrite El, (Eq i Hi), <- (eigen_columns A0 V d HO HD i k Hi Hk), <- mv_col.
    unfold mv, sum4. rewrite !Eq by lia. reflexivity. }
  split; [ exact Q | ].
  assert (M : forall j, (j < 4)%nat -> d j <= lam).
  { intros j Hj. rewrite El, (Ed j Hj), (Ed k Hk). apply Hmax; exact Hj. }
  split; [ exact M | ].
  intros r Hr. rewrite Q.
  replace lam with (lam * n2 r) by (rewrite Hr; ring).
  apply (qf_le_max A0 V d r lam HO HD M).
Qed.

(* connection with qtrfit and [eigen_contract]: a quaternion as an index
   function, [rayleigh] as the quadratic form of A0 *)

Definition qvec (q : Rquat) : nat -> R := fun i =>
  match i with 0%nat => q0 q | 1%nat => q1 q | 2%nat => q2 q | _ => q3 q end.

Lemma rayleigh_qf : forall (c : cm (A := R)) (q : Rquat),
  rayleigh RA c q = qf (A0_of (cm_rows RA c)) (qvec q).
Proof.
  intros c [[[a b] e] f]. unfold rayleigh, qf, sum4, A0_of, qvec.
  cbn [st_sym jinit]. unfold symf, cm_rows. cbn [Nat.eqb Nat.ltb Nat.leb mget vget List.nth map seq].
  unf. ring.
Qed.

Lemma qnorm2_n2 : forall q : Rquat, qnorm2 RA q = n2 (qvec q).
Proof. intros [[[a b] e] f]. unfold n2, sum4, qvec. unf. reflexivity. Qed.

Lemma cm_rows_wf : forall c : cm (A := R), wf4 (cm_rows RA c).
Proof. intro c. reflexivity. Qed.

(* the eigen-solver contract of Proofs/Quatfit.v, DISCHARGED for every call
   whose Jacobi iteration stops with zero off-diagonal part *)
Theorem jacobi_eigen_contract : forall (defrel refrel : list Rpt) (nrot : nat),
  offzero (jsweeps RA nrot (jinit RA (cm_rows RA (cmat RA defrel refrel)))) ->
  eigen_contract defrel refrel (qtrfit_quat RA nrot defrel refrel).
Proof.
  intros defrel refrel nrot Hz.
  set (c := cmat RA defrel refrel) in *.
  destruct (jacobi_exit_exact (cm_rows RA c) nrot (cm_rows_wf c) Hz) as (_ & _ & N & _ & _ & _ & Hmax).
  set (res := jacobi RA (cm_rows RA c) nrot) in *.
  set (q := fun i => mget RA (snd res) i 3) in *.
  assert (EQ : qtrfit_quat RA nrot defrel refrel = (q 0%nat, q 1%nat, q 2%nat, q 3%nat)).
  { unfold qtrfit_quat. fold c. fold res. destruct res as [dv vm]. reflexivity. }
  rewrite EQ. unfold eigen_contract. fold c.
  assert (En : forall g : nat -> R, n2 (qvec (g 0%nat, g 1%nat, g 2%nat, g 3%nat)) = n2 g) by (intro g; reflexivity).
  assert (Eq : forall g : nat -> R, qf (A0_of (cm_rows RA c)) (qvec (g 0%nat, g 1%nat, g 2%nat, g 3%nat))
                                    = qf (A0_of (cm_rows RA c)) g) by (intro g; reflexivity).
  split.
  - rewrite qnorm2_n2, En. exact N.
  - intros r Hr. rewrite !rayleigh_qf, Eq. apply Hmax. rewrite <- qnorm2_n2. exact Hr.
Qed.

(* fit_exact_image with the contract hypothesis replaced by "jacobi stops
   with zero off-diagonal part" *)
Theorem fit_exact_image_jacobi : forall (defs : list Rpt) (p : Rquat) (T atom : Rpt),
  qnorm2 RA p = 1 -> noncollinear defs ->
  let refs := map (rigid (q2mat RA p) T) defs in
  let defrel := snd (center RA defs) in
  let refrel := snd (center RA refs) in
  offzero (jsweeps RA NROT (jinit RA (cm_rows RA (cmat RA defrel refrel)))) ->
  (forall x, In x defrel ->
     rot1 RA (q2mat RA (qtrfit_quat RA NROT defrel refrel)) x = rot1 RA (q2mat RA p) x) /\
  find_coordinates RA (length defs) refs defs atom = Some (rigid (q2mat RA p) T atom).
Proof.
  intros defs p T atom Hp Hnc refs defrel refrel Hz.
  apply fit_exact_image; [ exact Hp | exact Hnc | ].
  apply jacobi_eigen_contract. exact Hz.
Qed.

(* What remains when the exit is NOT exact: the residual identity.
   Holds at EVERY exit (any fuel, converged or not, no hypothesis): column
   k of V is an approximate eigenvector of A0 for the value d_k = S_kk with
     | A0 v_k - d_k v_k |^2 = sum_{m <> k} S_mk^2   (S = the current matrix)
   so d_k is within sqrt(off-diagonal mass) of an eigenvalue of A0 (the last
   step is the classical residual bound for symmetric matrices, NOT proved
   here, as are convergence of S to diagonal form and rounding). *)

Lemma residual_identity : forall (A0 V S : fmat) (k : nat),
  orth V -> meq (mmul (mT V) (mmul A0 V)) S -> (k < 4)%nat ->
  sum4 (fun i => (mv A0 (fun j => V j k) i - S k k * V i k) * (mv A0 (fun j => V j k) i - S k k * V i k))
  = sum4 (fun m => if (m =? k)%nat then 0 else S m k * S m k).
Proof.
  intros A0 V S k HO HS Hk.
  assert (E := AV_VS A0 V S HO HS). destruct HO as [V1 V2].
  unfold sum4 at 1. rewrite !mv_col, !E by lia.
  transitivity (sum4 (fun m => sum4 (fun m' =>
     (if (m =? k)%nat then 0 else S m k) * (if (m' =? k)%nat then 0 else S m' k) * mmul (mT V) V m m'))).
  - idx4 k Hk; unfold sum4, mmul, mT; cbn [Nat.eqb]; ring.
  - unfold sum4. rewrite !V1 by lia. unfold mI.
    idx4 k Hk; cbn [Nat.eqb]; ring.
Qed.

Theorem jacobi_exit_residual : forall (am : Rmat) (nrot k : nat), wf4 am -> (k < 4)%nat ->
  let A0 := A0_of am in
  let st := jsweeps RA nrot (jinit RA am) in
  let V := st_V st in
  let S := st_sym st in
  sum4 (fun i => (mv A0 (fun j => V j k) i - S k k * V i k) * (mv A0 (fun j => V j k) i - S k k * V i k))
  = sum4 (fun m => if (m =? k)%nat then 0 else S m k * S m k)
  /\ 2 * sum4 (fun m => if (m =? k)%nat then 0 else S m k * S m k) <= off2 S.
Proof.
  intros am nrot k Hwf Hk A0 st V S.
  destruct (jacobi_invariant am nrot Hwf) as (_ & HO & HC).
  split.
  - apply (residual_identity A0 V S k HO HC Hk).
  - assert (Hs : msym S).
    { unfold S. destruct st as [[am' vm'] dv']. apply symf_sym. }
    generalize (Rle_0_sqr (S 0%nat 1%nat)) (Rle_0_sqr (S 0%nat 2%nat)) (Rle_0_sqr (S 0%nat 3%nat))
               (Rle_0_sqr (S 1%nat 2%nat)) (Rle_0_sqr (S 1%nat 3%nat)) (Rle_0_sqr (S 2%nat 3%nat)).
    unfold Rsqr, off2, sum4. intros.
    idx4 k Hk; cbn [Nat.eqb];
    rewrite ?(Hs 1%nat 0%nat), ?(Hs 2%nat 0%nat), ?(Hs 3%nat 0%nat), ?(Hs 2%nat 1%nat), ?(Hs 3%nat 1%nat), ?(Hs 3%nat 2%nat);
    lra.
Qed.

Lemma offzero_init_cm : forall c : cm (A := R),
  c01 c = 0 -> c02 c = 0 -> c03 c = 0 -> c12 c = 0 -> c13 c = 0 -> c23 c = 0 ->
  offzero (jinit RA (cm_rows RA c)).
Proof.
  intros c H01 H02 H03 H12 H13 H23 p q Hin. revert p q Hin. apply pairs_case; assumption.
Qed.

(* non-vacuity of the exit hypothesis: a 6-point template whose second
   moments are diagonal, turned by 180 degrees about x and translated.  The
   4x4 matrix of qtrfit is then diagonal from the start (the proof evaluates
   it), with c00 = -24 and c11 = 28, so its diagonal is not in ascending order
   as it stands; the iteration stops with zero off-diagonal part and
   find_coordinates places the atom by the motion *)
Definition jex_defs : list Rpt := [(1, 0, 0); (-1, 0, 0); (0, 2, 0); (0, -2, 0); (0, 0, 3); (0, 0, -3)].
Definition jex_p : Rquat := (0, 1, 0, 0).
Definition jex_T : Rpt := (10, -20, 30).

Lemma jacobi_nonvacuous :
  qnorm2 RA jex_p = 1 /\ noncollinear jex_defs /\
  (let refs := map (rigid (q2mat RA jex_p) jex_T) jex_defs in
   let defrel := snd (center RA jex_defs) in
   let refrel := snd (center RA refs) in
   offzero (jsweeps RA NROT (jinit RA (cm_rows RA (cmat RA defrel refrel)))) /\
   c11 (cmat RA defrel refrel) = 28 /\ c00 (cmat RA defrel refrel) = -24 /\
   find_coordinates RA 6 refs jex_defs (1, 2, 3) = Some (11, -22, 27)).
Proof.
  assert (Hp : qnorm2 RA jex_p = 1) by (unfold jex_p; unf; ring).
  assert (Hnc : noncollinear jex_defs).
  { exists (1, 0, 0), (-1, 0, 0), (0, 2, 0). unfold jex_defs. cbn [In].
    repeat split; auto. unf. intro H. apply pt_inv in H. lra. }
  split; [ exact Hp | ]. split; [ exact Hnc | ].
  cbv zeta.
  set (c := cmat RA (snd (center RA jex_defs)) (snd (center RA (map (rigid (q2mat RA jex_p) jex_T) jex_defs)))).
  assert (E : c00 c = -24 /\ c11 c = 28 /\ c01 c = 0 /\ c02 c = 0 /\ c03 c = 0 /\ c12 c = 0 /\ c13 c = 0 /\ c23 c = 0).
  { unfold c. calc. repeat split; lra. }
  destruct E as (E00 & E11 & E01 & E02 & E03 & E12 & E13 & E23).
  assert (Hz : offzero (jsweeps RA NROT (jinit RA (cm_rows RA c)))).
  { assert (Hz0 := offzero_init_cm c E01 E02 E03 E12 E13 E23).
    rewrite offzero_fixed; exact Hz0. }
  split; [ exact Hz | ]. split; [ exact E11 | ]. split; [ exact E00 | ].
  change 6%nat with (length jex_defs).
  rewrite (proj2 (fit_exact_image_jacobi jex_defs jex_p jex_T (1, 2, 3) Hp Hnc Hz)).
  f_equal. unfold rigid, jex_p, jex_T. unf. apply pt_eq; ring.
Qed.
