(* Lemmas and proofs about Model/PqrFormat.v (C08; printing-side lemmas of C09).

   An atom line is a row of fixed-width columns, [cat (pqr_fields cf a)]; take /
   drop / slice of it are computed on the list ([take_cat], [drop_cat],
   [slice_cat] of Lib/Strings.v): "columns a..b hold field k" is one rewrite.
   A column [shows] a blank-free string when it is that string with blanks
   around it; then strip gives the string back (default layout) and tokens gives
   it as one token (--whitespace layout), so both round trips rest on the same
   facts ([fixed_ok_spec], [num_fits_shows]). *)
From Coq Require Import String Ascii List Arith NArith ZArith Bool Lia ZifyBool ZifyNat
  DecimalString DecimalN DecimalZ DecimalPos Decimal.
From PV Require Import Lib.Strings Lib.Decimal Model.PqrFormat.
Import ListNotations.
Local Open Scope string_scope.

Lemma drop_all n s : String.length s <= n -> drop n s = "".
Proof. exact (Strings.drop_all n s). Qed.

Definition ws_head (s : string) : Prop :=
  match s with EmptyString => True | String c _ => is_ws c = true end.

Lemma ws_head_sp r : ws_head (String sp r).
Proof. reflexivity. Qed.

Lemma ws_head_nl r : ws_head (nl ++ r).
Proof. reflexivity. Qed.

Lemma ws_head_rep k r : 1 <= k -> ws_head (repeat_char sp k ++ r).
Proof. destruct k; [lia|]. reflexivity. Qed.

Lemma tokens_word_then s rest :
  any_char is_ws s = false -> is_empty s = false -> ws_head rest ->
  tokens (s ++ rest) = s :: tokens rest.
Proof.
  intros H E W. destruct rest as [|w r].
  - rewrite app_empty_r. now apply tokens_single.
  - simpl in W. rewrite (tokens_app_ws _ _ _ W), (tokens_single _ H E).
    now rewrite (tokens_ws_prefix _ _ W).
Qed.

Lemma tokens_pad_then k s rest :
  any_char is_ws s = false -> is_empty s = false -> ws_head rest ->
  tokens (repeat_char sp k ++ s ++ rest) = s :: tokens rest.
Proof. intros. rewrite tokens_blanks. now apply tokens_word_then. Qed.

Lemma tokens_padded k s j :
  any_char is_ws s = false -> tokens (repeat_char sp k ++ s ++ repeat_char sp j) = cons_ne s [].
Proof.
  intros H. assert (B : tokens (repeat_char sp j) = []).
  { rewrite <- (app_empty_r (repeat_char sp j)). apply tokens_blanks. }
  unfold cons_ne. destruct (is_empty s) eqn:E.
  - apply is_empty_true in E. subst s. now rewrite tokens_blanks.
  - rewrite (tokens_pad_then k s _ H E), B; [reflexivity|]. destruct j; [exact I | reflexivity].
Qed.

Definition shows (s f : string) : Prop :=
  any_char is_ws s = false /\ exists k j, f = repeat_char sp k ++ s ++ repeat_char sp j.

Lemma strip_shows s f : shows s f -> strip f = s.
Proof. intros (H & k & j & ->). now apply strip_padded. Qed.

Lemma tokens_shows s f : shows s f -> tokens f = cons_ne s [].
Proof. intros (H & k & j & ->). now apply tokens_padded. Qed.

Lemma tokens_shows1 s f : shows s f -> is_empty s = false -> tokens f = [s].
Proof. intros H E. rewrite (tokens_shows s f H). unfold cons_ne. now rewrite E. Qed.

Lemma shows_rjust w s :
  any_char is_ws s = false -> String.length s <= w -> shows s (take w (rjust w s)).
Proof.
  intros W H. split; [exact W|]. exists (w - String.length s), 0.
  rewrite take_rjust_fit by exact H. now rewrite app_empty_r.
Qed.

Lemma shows_ljust w s :
  any_char is_ws s = false -> String.length s <= w -> shows s (take w (ljust w s)).
Proof.
  intros W H. split; [exact W|]. exists 0, (w - String.length s). now apply take_ljust_fit.
Qed.

Lemma shows_blank s f : shows s f -> shows s (" " ++ f).
Proof. intros (W & k & j & ->). split; [exact W|]. now exists (S k), j. Qed.

Lemma digit_code c : is_digit c = true -> (48 <= N_of_ascii c <= 57)%N.
Proof. unfold is_digit. lia. Qed.

Lemma digit_not_ws c : is_digit c = true -> is_ws c = false.
Proof. unfold is_digit, is_ws. lia. Qed.

(* "+", "-" and "." all come before "0" *)
Lemma digit_neq c d : is_digit c = true -> (N_of_ascii d < 48)%N -> (c =? d)%char = false.
Proof. intros H L. apply Ascii.eqb_neq. intros ->. apply digit_code in H. lia. Qed.

Lemma digits_no_ws s : all_chars is_digit s = true -> any_char is_ws s = false.
Proof. apply all_not_any. exact digit_not_ws. Qed.

Lemma uint_string_digits u : all_chars is_digit (NilEmpty.string_of_uint u) = true.
Proof. induction u; simpl; auto. Qed.

Lemma N_to_string_eq n : N_to_string n = NilEmpty.string_of_uint (N.to_uint n).
Proof.
  unfold N_to_string. destruct n as [|p]; [reflexivity|]. simpl.
  pose proof (DecimalPos.Unsigned.to_uint_nonnil p) as Hn.
  destruct (Pos.to_uint p); [congruence | reflexivity ..].
Qed.

Lemma N_to_string_digits n : all_chars is_digit (N_to_string n) = true.
Proof. rewrite N_to_string_eq. apply uint_string_digits. Qed.

Lemma N_to_string_nonempty n : is_empty (N_to_string n) = false.
Proof. unfold N_to_string, NilZero.string_of_uint. now destruct (N.to_uint n). Qed.

Lemma digits_value_N n : digits_value (N_to_string n) = Some n.
Proof.
  unfold digits_value. rewrite N_to_string_eq, NilEmpty.usu. simpl.
  now rewrite DecimalN.Unsigned.of_to.
Qed.

Lemma digits_value_zero s : digits_value (String zero_char s) = digits_value s.
Proof.
  unfold digits_value. simpl. destruct (NilEmpty.uint_of_string s); reflexivity.
Qed.

Lemma digits_value_zfill w s : digits_value (zfill w s) = digits_value s.
Proof.
  unfold zfill. induction (w - String.length s) as [|k IH]; simpl; [reflexivity|].
  now rewrite digits_value_zero.
Qed.

Lemma Z_to_string_cases z :
  Z_to_string z = if (z <? 0)%Z then String "-" (N_to_string (Z.to_N (- z)))
                  else N_to_string (Z.to_N z).
Proof. destruct z; reflexivity. Qed.

Lemma int_body_digits b s :
  all_chars is_digit s = true -> (is_empty s = false \/ b = true) -> int_body b s = Some s.
Proof.
  revert b. induction s as [|c r IH]; intros b H E; simpl in *.
  - destruct E as [E|E]; [discriminate | now rewrite E].
  - apply andb_true_iff in H as [Hc Hr]. rewrite Hc.
    rewrite (IH true Hr) by now right. reflexivity.
Qed.

Lemma sign_split_signed (neg : bool) c r :
  is_digit c = true -> sign_split ((if neg then "-" else "") ++ String c r) = (neg, String c r).
Proof.
  intros H. destruct neg; [reflexivity|]. cbn.
  now rewrite (digit_neq c "-" H), (digit_neq c "+" H).
Qed.

Lemma py_int_signed (neg : bool) n :
  py_int ((if neg then "-" else "") ++ N_to_string n)
  = Some (if neg then - Z.of_N n else Z.of_N n)%Z.
Proof.
  pose proof (N_to_string_digits n) as D. pose proof (N_to_string_nonempty n) as E.
  unfold py_int. destruct (N_to_string n) as [|c r] eqn:S; [discriminate|].
  rewrite sign_split_signed by now apply andb_true_iff in D.
  rewrite (int_body_digits _ _ D) by now left. rewrite <- S, digits_value_N. reflexivity.
Qed.

Theorem py_int_Z_to_string z : py_int (Z_to_string z) = Some z.
Proof.
  rewrite Z_to_string_cases. destruct (z <? 0)%Z eqn:E.
  - rewrite (py_int_signed true _ : py_int (String "-" _) = _). f_equal. lia.
  - rewrite (py_int_signed false _ : py_int (N_to_string _) = _). f_equal. lia.
Qed.

Lemma Z_to_string_no_ws z : any_char is_ws (Z_to_string z) = false.
Proof.
  rewrite Z_to_string_cases. destruct (z <? 0)%Z; simpl; apply digits_no_ws, N_to_string_digits.
Qed.

Lemma Z_to_string_nonempty z : is_empty (Z_to_string z) = false.
Proof.
  rewrite Z_to_string_cases. destruct (z <? 0)%Z; [reflexivity | apply N_to_string_nonempty].
Qed.

Lemma zfill_digits w s : all_chars is_digit s = true -> all_chars is_digit (zfill w s) = true.
Proof.
  intros H. unfold zfill. rewrite all_chars_app, H, all_chars_repeat; reflexivity.
Qed.

Lemma length_zfill w s : String.length (zfill w s) = Nat.max w (String.length s).
Proof. unfold zfill. rewrite length_app, length_repeat. lia. Qed.

Lemma split_dot_digits ip fp :
  all_chars is_digit ip = true -> split_dot (ip ++ String dot_char fp) = (ip, Some fp).
Proof.
  induction ip as [|c r IH]; simpl; intros H.
  - reflexivity.
  - apply andb_true_iff in H as [Hc Hr]. rewrite (digit_neq c dot_char Hc), (IH Hr); reflexivity.
Qed.

(* the unsigned part of the rendering '%.df' *)
Definition fmt_body (d : nat) (m : N) : string :=
  let p := zfill (S d) (N_to_string m) in
  let k := String.length p - d in take k p ++ String dot_char (drop k p).

Lemma fmt_fixed_body d v :
  fmt_fixed d v = (if fx_neg v then "-" else "") ++ fmt_body d (fx_mag v).
Proof. reflexivity. Qed.

Lemma fmt_body_parts d m :
  exists c ip fp, fmt_body d m = String c ip ++ String dot_char fp /\
    all_chars is_digit (String c ip) = true /\ all_chars is_digit fp = true /\
    String.length fp = d /\ digits_value (String c ip ++ fp) = Some m.
Proof.
  unfold fmt_body.
  set (p := zfill (S d) (N_to_string m)).
  assert (Hp : all_chars is_digit p = true) by apply zfill_digits, N_to_string_digits.
  assert (Hl : S d <= String.length p) by (unfold p; rewrite length_zfill; lia).
  destruct (take (String.length p - d) p) as [|c ip] eqn:T.
  { apply (f_equal String.length) in T. rewrite length_take in T. simpl in T. lia. }
  exists c, ip, (drop (String.length p - d) p). rewrite <- T. repeat split.
  - now apply all_chars_take.
  - now apply all_chars_drop.
  - rewrite length_drop. lia.
  - rewrite take_drop. unfold p. rewrite digits_value_zfill. apply digits_value_N.
Qed.

Theorem plain_decimal_fmt d v :
  plain_decimal (fmt_fixed d v) = Some (PF (fx_neg v) (fx_mag v) d).
Proof.
  rewrite fmt_fixed_body.
  destruct (fmt_body_parts d (fx_mag v)) as (c & ip & fp & E & Hi & Hf & Hl & Hv).
  rewrite E. unfold plain_decimal. cbn [append].
  rewrite sign_split_signed by now apply andb_true_iff in Hi.
  change (String c (ip ++ String dot_char fp)) with (String c ip ++ String dot_char fp).
  rewrite (split_dot_digits _ _ Hi), Hi, Hf, Hv, Hl. reflexivity.
Qed.

Lemma fmt_fixed_no_ws d v : any_char is_ws (fmt_fixed d v) = false.
Proof.
  rewrite fmt_fixed_body.
  destruct (fmt_body_parts d (fx_mag v)) as (c & ip & fp & E & Hi & Hf & _).
  rewrite E, !any_char_app, (digits_no_ws _ Hi). cbn [any_char].
  rewrite (digits_no_ws _ Hf). destruct (fx_neg v); reflexivity.
Qed.

Lemma fmt_fixed_nonempty d v : is_empty (fmt_fixed d v) = false.
Proof.
  rewrite fmt_fixed_body.
  destruct (fmt_body_parts d (fx_mag v)) as (c & ip & fp & E & _).
  rewrite E. destruct (fx_neg v); reflexivity.
Qed.

Lemma opt_fmt4_parse o : plain_decimal (opt_fmt4 o) = Some (pf_of_opt 4 o).
Proof. destruct o; [apply plain_decimal_fmt | reflexivity]. Qed.

Lemma opt_fmt4_no_ws o : any_char is_ws (opt_fmt4 o) = false.
Proof. destruct o; [apply fmt_fixed_no_ws | reflexivity]. Qed.

Lemma opt_fmt4_nonempty o : is_empty (opt_fmt4 o) = false.
Proof. destruct o; [apply fmt_fixed_nonempty | reflexivity]. Qed.

Lemma py_float_plain s p : plain_decimal s = Some p -> py_float s = FNum p.
Proof. intros H. unfold py_float. now rewrite H. Qed.

Lemma py_int_nondigit1 c : is_digit c = false -> py_int (String c "") = None.
Proof.
  intros H. unfold py_int, sign_split.
  destruct (c =? "-")%char; [reflexivity|].
  destruct (c =? "+")%char; [reflexivity|].
  simpl. rewrite H, andb_false_r. reflexivity.
Qed.

Lemma py_float_nondigit1 c : is_digit c = false -> py_float (String c "") = FNot.
Proof.
  intros H. unfold py_float, plain_decimal, float_syntax, sign_split.
  destruct (c =? "-")%char; [reflexivity|].
  destruct (c =? "+")%char; [reflexivity|].
  cbn [split_dot snd digitpart]. rewrite H. cbn [Nat.eqb].
  destruct (c =? dot_char)%char eqn:Ed; [apply Ascii.eqb_eq in Ed; subst c; reflexivity|].
  cbn [all_chars]. rewrite H. cbn [andb map_chars mem_str orb String.eqb].
  now destruct (lower c =? "i")%char, (lower c =? "n")%char.
Qed.

(* chain id and insertion code: at most one character, not a digit *)
Lemma nondigit_token (T : Type) (f : string -> T) (v : T) s :
  (forall c, is_digit c = false -> f (String c "") = v) ->
  String.length s <= 1 -> any_char is_digit s = false -> is_empty s = false -> f s = v.
Proof.
  intros F. destruct s as [|c [|d r]]; cbn [String.length any_char]; intros L D E;
    [discriminate | | lia].
  apply F. now apply orb_false_iff in D.
Qed.

Lemma fits_le w s : fits w s = true -> String.length s <= w.
Proof. unfold fits. intros H. now apply Nat.leb_le in H. Qed.

Lemma token_ok_spec lo hi s :
  token_ok lo hi s = true ->
  lo <= String.length s /\ String.length s <= hi /\ any_char is_ws s = false.
Proof. unfold token_ok. rewrite !andb_true_iff, !Nat.leb_le, negb_true_iff. tauto. Qed.

Lemma type_ok_cases a : type_ok a = true -> a_type a = "ATOM" \/ a_type a = "HETATM".
Proof.
  unfold type_ok. intros H. apply orb_true_iff in H as [H|H]; apply String.eqb_eq in H; auto.
Qed.

Lemma shows_type_field a : type_ok a = true -> shows (a_type a) (take 6 (ljust 6 (a_type a))).
Proof.
  intros H. destruct (type_ok_cases a H) as [-> | ->];
    (apply shows_ljust; [reflexivity | cbn; lia]).
Qed.

Lemma length_name_field n : String.length (name_field n) = 4.
Proof.
  unfold name_field. destruct (_ || _); cbn [append String.length];
    now rewrite length_take_ljust.
Qed.

Lemma length_res_field n : String.length (res_field n) = 4.
Proof.
  unfold res_field. destruct (_ =? _)%nat; cbn [append String.length];
    now rewrite length_take_ljust.
Qed.

Lemma length_coord_field v : String.length (coord_field v) = 8.
Proof. apply length_take_ljust. Qed.

Lemma length_charge_field o : String.length (charge_field o) = 8.
Proof. apply length_take_rjust. Qed.

Lemma length_radius_field o : String.length (radius_field o) = 7.
Proof. apply length_take_rjust. Qed.

Lemma length_ins_field i : String.length i <= 1 -> String.length (ins_field i) = 4.
Proof. destruct i as [|c [|d r]]; simpl; intros; try reflexivity; lia. Qed.

(* a name of four characters starts in the first column of its field, a shorter
   one in the second *)
Lemma shows_name_field n :
  any_char is_ws n = false -> String.length n <= 4 -> shows n (name_field n).
Proof.
  intros W H. unfold name_field. destruct (_ || _) eqn:E; [now apply shows_ljust|].
  apply orb_false_iff in E as [E _]. apply Nat.eqb_neq in E.
  apply shows_blank, shows_ljust; [exact W | lia].
Qed.

Lemma shows_res_field n :
  any_char is_ws n = false -> String.length n <= 4 -> shows n (res_field n).
Proof.
  intros W H. unfold res_field. destruct (_ =? _)%nat eqn:E; [now apply shows_ljust|].
  apply Nat.eqb_neq in E. apply shows_blank, shows_ljust; [exact W | lia].
Qed.

Lemma shows_coord_field v :
  fits 8 (fmt_fixed 3 v) = true -> shows (fmt_fixed 3 v) (coord_field v).
Proof.
  intros H. apply fits_le in H. unfold coord_field.
  rewrite ljust_long by (rewrite length_rjust; lia).
  apply shows_rjust; [apply fmt_fixed_no_ws | exact H].
Qed.

Lemma shows_ins_field i : any_char is_ws i = false -> shows i (ins_field i).
Proof.
  intros W. split; [exact W|]. destruct i; [now exists 0, 4 | now exists 0, 3].
Qed.

(* column 27 alone is the insertion code *)
Lemma ins_field_take1 i : String.length i <= 1 -> take 1 (ins_field i) = take 1 (ljust 1 i).
Proof. destruct i as [|c [|d r]]; cbn [String.length]; intros; [reflexivity .. | lia]. Qed.

Lemma ins_field_split i : exists p, ins_field i = p ++ " ".
Proof.
  unfold ins_field. destruct (is_empty i).
  - now exists "   ".
  - exists (i ++ "  "). now rewrite app_assoc_s.
Qed.

Lemma tokens_ins_then i t : tokens (ins_field i ++ t) = (tokens (ins_field i) ++ tokens t)%list.
Proof.
  destruct (ins_field_split i) as [p ->].
  rewrite app_assoc_s. cbn [append].
  now rewrite (tokens_app_ws p _ t), (tokens_ws_suffix p).
Qed.

Definition pqr_fields (cf : bool) (a : atom) : list (nat * string) :=
  [(6, take 6 (ljust 6 (a_type a)));
   (5, take 5 (rjust 5 (Z_to_string (a_serial a))));
   (1, " ");
   (4, name_field (a_name a));
   (4, res_field (a_res_name a));
   (1, " ");
   (1, take 1 (ljust 1 (if cf then a_chain a else "")));
   (4, take 4 (rjust 4 (Z_to_string (a_res_seq a))));
   (4, ins_field (a_ins a));
   (8, coord_field (a_x a)); (8, coord_field (a_y a)); (8, coord_field (a_z a));
   (8, charge_field (a_charge a));
   (7, radius_field (a_radius a))].

Lemma pqr_string_cat cf a : pqr_string cf a = cat (pqr_fields cf a).
Proof.
  unfold pqr_string, common_string. cbn [cat pqr_fields]. now rewrite !app_assoc_s, app_empty_r.
Qed.

Create HintDb cols discriminated.
#[local] Hint Resolve length_take_ljust length_take_rjust length_name_field length_res_field
  length_coord_field length_charge_field length_radius_field length_ins_field : cols.

(* columns 1-26 have their widths whatever the atom; the insertion-code
   field (27-30) only if the code is a single character *)
Lemma pqr_fit cf a n : n <= 26 -> fit n (pqr_fields cf a).
Proof.
  intros L. apply (fit_le _ n 26 L). cbn [fit pqr_fields Nat.sub]. repeat split; auto with cols.
Qed.

Lemma pqr_take cf a n : n <= 26 -> take n (pqr_string cf a) = take_cols n (pqr_fields cf a).
Proof. intros L. rewrite pqr_string_cat. now apply take_cat, pqr_fit. Qed.

Lemma pqr_drop cf a n : n <= 26 -> drop n (pqr_string cf a) = cat (drop_cols n (pqr_fields cf a)).
Proof. intros L. rewrite pqr_string_cat. now apply drop_cat, pqr_fit. Qed.

Lemma pqr_fitted cf a : String.length (a_ins a) <= 1 -> fitted (pqr_fields cf a).
Proof. intros H. repeat constructor; cbn [fst snd]; auto with cols. Qed.

Lemma num_fits_shows a :
  num_fits a = true ->
  String.length (a_ins a) <= 1 /\
  shows (fmt_fixed 3 (a_x a)) (coord_field (a_x a)) /\
  shows (fmt_fixed 3 (a_y a)) (coord_field (a_y a)) /\
  shows (fmt_fixed 3 (a_z a)) (coord_field (a_z a)) /\
  shows (opt_fmt4 (a_charge a)) (charge_field (a_charge a)) /\
  shows (opt_fmt4 (a_radius a)) (radius_field (a_radius a)).
Proof.
  unfold num_fits. rewrite !andb_true_iff. intros [[[[[Hi Hx] Hy] Hz] Hc] Hr].
  exact (conj (fits_le _ _ Hi) (conj (shows_coord_field _ Hx) (conj (shows_coord_field _ Hy)
    (conj (shows_coord_field _ Hz)
    (conj (shows_rjust 8 _ (opt_fmt4_no_ws _) (fits_le _ _ Hc))
          (shows_rjust 7 _ (opt_fmt4_no_ws _) (fits_le _ _ Hr))))))).
Qed.

Lemma fixed_ok_spec cf a :
  fixed_ok cf a = true ->
  type_ok a = true /\
  shows (a_type a) (take 6 (ljust 6 (a_type a))) /\
  shows (Z_to_string (a_serial a)) (take 5 (rjust 5 (Z_to_string (a_serial a)))) /\
  shows (a_name a) (name_field (a_name a)) /\
  shows (a_res_name a) (res_field (a_res_name a)) /\
  shows (if cf then a_chain a else "") (take 1 (ljust 1 (if cf then a_chain a else ""))) /\
  String.length (if cf then a_chain a else "") <= 1 /\
  shows (Z_to_string (a_res_seq a)) (take 4 (rjust 4 (Z_to_string (a_res_seq a)))) /\
  any_char is_ws (a_ins a) = false /\
  num_fits a = true.
Proof.
  intros H. unfold fixed_ok in H. rewrite !andb_true_iff in H.
  destruct H as [[[[[[[[[[[Hty Hs] Hn] Hr] Hc] Hq] Hi] Hx] Hy] Hz] Hch] Hrd].
  apply token_ok_spec in Hn as (_ & Hn & Wn), Hr as (_ & Hr & Wr), Hi as (_ & Hi & Wi).
  assert (C : String.length (if cf then a_chain a else "") <= 1 /\
              any_char is_ws (if cf then a_chain a else "") = false).
  { destruct cf; [apply token_ok_spec in Hc; now destruct Hc as (_ & ? & ?) |].
    split; [apply Nat.le_0_l | reflexivity]. }
  destruct C as [Lc Wc].
  assert (NF : num_fits a = true).
  { unfold num_fits. rewrite Hx, Hy, Hz, Hch, Hrd, !andb_true_r. now apply Nat.leb_le. }
  exact (conj Hty (conj (shows_type_field a Hty)
    (conj (shows_rjust 5 _ (Z_to_string_no_ws _) (fits_le _ _ Hs))
    (conj (shows_name_field _ Wn Hn) (conj (shows_res_field _ Wr Hr)
    (conj (shows_ljust 1 _ Wc Lc) (conj Lc
    (conj (shows_rjust 4 _ (Z_to_string_no_ws _) (fits_le _ _ Hq)) (conj Wi NF))))))))).
Qed.

Theorem fixed_roundtrip cf a :
  fixed_ok cf a = true -> read_fixed (pqr_string cf a) = expected_fixed cf a.
Proof.
  intros H. apply fixed_ok_spec in H as (_ & ST & SS & SN & SR & SC & _ & SQ & Wi & NF).
  apply num_fits_shows in NF as (Hi & SX & SY & SZ & SCh & SRd).
  unfold read_fixed. rewrite pqr_string_cat, !slice_cat by now apply pqr_fitted.
  cbn [pqr_fields drop_cols take_cols Nat.sub Nat.compare].
  rewrite ins_field_take1 by exact Hi.
  rewrite (strip_shows _ _ ST), (strip_shows _ _ SS), (strip_shows _ _ SN), (strip_shows _ _ SR),
    (strip_shows _ _ SC), (strip_shows _ _ SQ), (strip_shows _ _ (shows_ljust 1 _ Wi Hi)),
    (strip_shows _ _ SX), (strip_shows _ _ SY), (strip_shows _ _ SZ), (strip_shows _ _ SCh),
    (strip_shows _ _ SRd).
  now rewrite !py_int_Z_to_string, !plain_decimal_fmt, !opt_fmt4_parse.
Qed.

Lemma pqr_line_cat cf a : pqr_string cf a ++ nl = cat (pqr_fields cf a ++ [(1, nl)]).
Proof. rewrite cat_app, <- pqr_string_cat. cbn [cat]. now rewrite app_empty_r. Qed.

(* print_pqr's blanks fall on column boundaries (6, 16, 22, 26, 38, 46, 54, 62)
   and the boundaries it leaves alone have a blank already: no column is split
   and no two are merged *)
Lemma ws_line_tokens cf a :
  String.length (a_ins a) <= 1 ->
  tokens (ws_line cf a) = concat (map tokens (map snd (pqr_fields cf a))).
Proof.
  intros Hi.
  assert (F : fitted (pqr_fields cf a ++ [(1, nl)])).
  { apply Forall_app. split; [now apply pqr_fitted | now repeat constructor]. }
  unfold ws_line, respace.
  rewrite pqr_line_cat, !(slice_cat _ _ _ F), (drop_cat _ _ (fitted_fit _ F _)).
  cbn [pqr_fields List.app drop_cols take_cols cat Nat.sub Nat.compare append].
  rewrite app_empty_r. unfold nl.
  rewrite !tokens_app_ws, tokens_ins_then by reflexivity.
  cbn [map snd concat]. rewrite <- !app_assoc. reflexivity.
Qed.

(* within the column capacities the tokens are the field contents, empty
   ones (chain id, insertion code, an empty name) left out *)
Lemma ws_tokens cf a :
  fixed_ok cf a = true ->
  tokens (ws_line cf a) =
    a_type a :: Z_to_string (a_serial a) ::
    cons_ne (a_name a) (cons_ne (a_res_name a) (cons_ne (if cf then a_chain a else "")
      (Z_to_string (a_res_seq a) :: cons_ne (a_ins a)
        [fmt_fixed 3 (a_x a); fmt_fixed 3 (a_y a); fmt_fixed 3 (a_z a);
         opt_fmt4 (a_charge a); opt_fmt4 (a_radius a)]))).
Proof.
  intros H. apply fixed_ok_spec in H as (Ty & ST & SS & SN & SR & SC & _ & SQ & Wi & NF).
  apply num_fits_shows in NF as (Hi & SX & SY & SZ & SCh & SRd).
  rewrite (ws_line_tokens cf a Hi). cbn [pqr_fields map snd concat].
  rewrite (tokens_shows _ _ SN), (tokens_shows _ _ SR), (tokens_shows _ _ SC),
    (tokens_shows _ _ (shows_ins_field _ Wi)).
  rewrite (tokens_shows1 _ _ ST), (tokens_shows1 _ _ SS), (tokens_shows1 _ _ SQ),
    (tokens_shows1 _ _ SX), (tokens_shows1 _ _ SY), (tokens_shows1 _ _ SZ),
    (tokens_shows1 _ _ SCh), (tokens_shows1 _ _ SRd)
    by (auto using Z_to_string_nonempty, fmt_fixed_nonempty, opt_fmt4_nonempty
        || (destruct (type_ok_cases a Ty) as [-> | ->]; reflexivity)).
  now rewrite !cons_ne_app.
Qed.

(* from_pqr_line on the token shapes the writer produces: optional chain id
   (a token int() rejects) before resSeq, optional insertion code (a token
   float() rejects) after it *)
Lemma from_tokens {line ty S N R c Q i X Y Z C Rd serial q px py pz pc pr} :
  ty = "ATOM" \/ ty = "HETATM" ->
  tokens line = ty :: S :: N :: R :: cons_ne c (Q :: cons_ne i [X; Y; Z; C; Rd]) ->
  (is_empty c = false -> py_int c = None) ->
  (is_empty i = false -> py_float i = FNot) ->
  py_int S = Some serial -> py_int Q = Some q ->
  plain_decimal X = Some px -> plain_decimal Y = Some py -> plain_decimal Z = Some pz ->
  plain_decimal C = Some pc -> plain_decimal Rd = Some pr ->
  from_pqr_line line =
    PAtom (mkpatom ty serial N R (if is_empty c then None else Some c) q
                   (if is_empty i then None else Some i) px py pz pc pr).
Proof.
  intros Hty Ht Hc Hi HS HQ HX HY HZ HC HR.
  apply py_float_plain in HX, HY, HZ, HC, HR.
  unfold from_pqr_line. rewrite Ht.
  assert (E : starts_hash ty = false /\ mem_str ty skip_words = false
              /\ mem_str ty ["ATOM"; "HETATM"] = true)
    by (destruct Hty as [-> | ->]; repeat split; reflexivity).
  destruct E as (E0 & E1 & E2). rewrite E0, E1, E2. cbn [orb].
  unfold parse_fields, cons_ne. rewrite HS.
  destruct (is_empty c); destruct (is_empty i);
    rewrite ?(Hc eq_refl), HQ; cbv beta iota delta [parse_tail pop_float] zeta;
    rewrite ?(Hi eq_refl); cbv beta iota; rewrite HX; cbv beta iota; rewrite HY; cbv beta iota;
    rewrite HZ; cbv beta iota; rewrite HC; cbv beta iota; rewrite HR; reflexivity.
Qed.

Lemma ws_ok_spec cf a :
  ws_ok cf a = true ->
  fixed_ok cf a = true /\ is_empty (a_name a) = false /\ is_empty (a_res_name a) = false /\
  any_char is_digit (if cf then a_chain a else "") = false /\ any_char is_digit (a_ins a) = false.
Proof.
  unfold ws_ok. rewrite !andb_true_iff, !negb_true_iff.
  intros [[[[F Nn] Nr] Dc] Di]. repeat split; auto.
  destruct cf; [now apply negb_true_iff in Dc | reflexivity].
Qed.

Theorem ws_roundtrip cf a :
  ws_ok cf a = true -> from_pqr_line (ws_line cf a) = PAtom (expected_ws cf a).
Proof.
  intros Hok. apply ws_ok_spec in Hok as (F & Nn & Nr & Dc & Di).
  pose proof (ws_tokens cf a F) as TK. unfold cons_ne at 1 2 in TK. rewrite Nn, Nr in TK.
  apply fixed_ok_spec in F as (Ty & _ & _ & _ & _ & _ & Lc & _ & _ & NF).
  apply num_fits_shows in NF as (Li & _).
  rewrite (from_tokens (type_ok_cases a Ty) TK
             (nondigit_token _ py_int None _ py_int_nondigit1 Lc Dc)
             (nondigit_token _ py_float FNot _ py_float_nondigit1 Li Di)
             (py_int_Z_to_string _) (py_int_Z_to_string _)
             (plain_decimal_fmt 3 _) (plain_decimal_fmt 3 _) (plain_decimal_fmt 3 _)
             (opt_fmt4_parse _) (opt_fmt4_parse _)).
  unfold expected_ws. destruct cf; [destruct (is_empty (a_chain a))|]; reflexivity.
Qed.

(* FULL STATEMENTS of C08 over the property's quantifier (NOT theorems: each
   is refuted below by a witness that the harness replays on the real code):

     forall cf a, in_quantifier a = true ->
       read_fixed (pqr_string cf a) = expected_fixed cf a.

     forall cf a, in_quantifier a = true ->
       from_pqr_line (ws_line cf a) = PAtom (expected_ws cf a).

   What holds is the same conclusion under fixed_ok / ws_ok.  ws_ok is fixed_ok
   (the column capacities, C08-F1..F3) with non-empty names, minus digit chain
   ids (C08-F6) and digit insertion codes (C08-F8).  The inputs of the repaired
   findings C08-F4, C08-F5, C08-F7 and of the z|charge|radius fusion lie inside
   ws_ok: they are instances of ws_roundtrip (ws_repaired_witnesses). *)

Definition base_atom : atom :=
  mkatom "ATOM" 1 "CA" "ALA" "A" 12 "" (mkfx false 1000) (mkfx true 2500) (mkfx false 3125)
         (Some (mkfx true 5000)) (Some (mkfx false 18000)).

Definition set_res_seq (n : Z) (a : atom) : atom :=
  mkatom (a_type a) (a_serial a) (a_name a) (a_res_name a) (a_chain a) n (a_ins a)
         (a_x a) (a_y a) (a_z a) (a_charge a) (a_radius a).
Definition set_ins (i : string) (a : atom) : atom :=
  mkatom (a_type a) (a_serial a) (a_name a) (a_res_name a) (a_chain a) (a_res_seq a) i
         (a_x a) (a_y a) (a_z a) (a_charge a) (a_radius a).
Definition set_chain (c : string) (a : atom) : atom :=
  mkatom (a_type a) (a_serial a) (a_name a) (a_res_name a) c (a_res_seq a) (a_ins a)
         (a_x a) (a_y a) (a_z a) (a_charge a) (a_radius a).
Definition set_x (v : fx) (a : atom) : atom :=
  mkatom (a_type a) (a_serial a) (a_name a) (a_res_name a) (a_chain a) (a_res_seq a) (a_ins a)
         v (a_y a) (a_z a) (a_charge a) (a_radius a).
Definition set_charge (v : option fx) (a : atom) : atom :=
  mkatom (a_type a) (a_serial a) (a_name a) (a_res_name a) (a_chain a) (a_res_seq a) (a_ins a)
         (a_x a) (a_y a) (a_z a) v (a_radius a).
Definition set_radius (v : option fx) (a : atom) : atom :=
  mkatom (a_type a) (a_serial a) (a_name a) (a_res_name a) (a_chain a) (a_res_seq a) (a_ins a)
         (a_x a) (a_y a) (a_z a) (a_charge a) v.

Definition wit_serial : atom := with_serial 100000 base_atom.
Definition wit_res_seq : atom := set_res_seq 10000 base_atom.
Definition wit_coord_pos : atom := set_x (mkfx false 10000123) base_atom.   (* 10000.123 *)
Definition wit_coord_neg : atom := set_x (mkfx true 1000123) base_atom.     (* -1000.123 *)
Definition wit_chain_resseq : atom := set_res_seq 1000 base_atom.           (* chain A, 1000 *)
Definition wit_inscode : atom := set_ins "B" base_atom.                      (* 12B *)
Definition wit_digit_chain : atom := set_chain "1" base_atom.
Definition wit_digit_ins : atom := set_ins "1" base_atom.                    (* 12 + iCode 1 *)
Definition wit_charge : atom := set_charge (Some (mkfx true 105000)) base_atom.   (* -10.5 e *)
Definition wit_radius : atom := set_radius (Some (mkfx false 105000)) base_atom.  (* 10.5 A *)

(* serial >= 100000: the 5 columns keep the leading digits only *)
Theorem fixed_serial_refuted :
  exists a, in_quantifier a = true /\ a_serial a = 100000%Z /\
    pqr_string false a = "ATOM  10000  CA  ALA    12       1.000  -2.500   3.125 -0.5000 1.8000" /\
    f_serial (read_fixed (pqr_string false a)) = Some 10000%Z.
Proof. exists wit_serial. vm_compute. repeat split. Qed.

(* resSeq >= 10000 *)
Theorem fixed_res_seq_refuted :
  exists a, in_quantifier a = true /\ a_res_seq a = 10000%Z /\
    f_res_seq (read_fixed (pqr_string false a)) = Some 1000%Z.
Proof. exists wit_res_seq. vm_compute. repeat split. Qed.

(* a coordinate needing more than 8 columns loses its last decimals *)
Theorem fixed_coord_refuted :
  (exists a, in_quantifier a = true /\ a_x a = mkfx false 10000123 /\
     f_x (read_fixed (pqr_string false a)) = Some (PF false 1000012 2)) /\
  (exists a, in_quantifier a = true /\ a_x a = mkfx true 1000123 /\
     f_x (read_fixed (pqr_string false a)) = Some (PF true 100012 2)).
Proof.
  split; [exists wit_coord_pos | exists wit_coord_neg]; vm_compute; repeat split.
Qed.

(* REPAIRED C08-F4 (--whitespace --keep-chain: chain id and a 4-character
   resSeq were one token): for ALL atoms within the guard the reader returns
   the chain id and the residue number *)
Theorem ws_chain_res_seq_roundtrip a :
  ws_ok true a = true -> is_empty (a_chain a) = false ->
  exists p, from_pqr_line (ws_line true a) = PAtom p /\
    p_chain p = Some (a_chain a) /\ p_res_seq p = a_res_seq a.
Proof.
  intros H E. eexists. split; [exact (ws_roundtrip true a H)|].
  unfold expected_ws. cbn [p_chain p_res_seq andb]. now rewrite E.
Qed.

(* REPAIRED C08-F5 (--whitespace: the insertion code was glued to resSeq): for
   ALL atoms within the guard, with or without --keep-chain, the reader returns
   the residue number and the insertion code *)
Theorem ws_ins_code_roundtrip cf a :
  ws_ok cf a = true -> is_empty (a_ins a) = false ->
  exists p, from_pqr_line (ws_line cf a) = PAtom p /\
    p_res_seq p = a_res_seq a /\ p_ins p = Some (a_ins a).
Proof.
  intros H E. eexists. split; [exact (ws_roundtrip cf a H)|].
  unfold expected_ws. cbn [p_ins p_res_seq]. now rewrite E.
Qed.

(* --whitespace --keep-chain with a digit as chain id: from_pqr_line silently
   reads the chain as resSeq and shifts every later field by one *)
Theorem ws_digit_chain_refuted :
  exists a p, in_quantifier a = true /\ fixed_ok true a = true /\ a_chain a = "1" /\
    a_res_seq a = 12%Z /\
    from_pqr_line (ws_line true a) = PAtom p /\
    p_chain p = None /\ p_res_seq p = 1%Z /\ p_x p = PF false 12 0 /\ p_radius p = PF true 5000 4.
Proof.
  exists wit_digit_chain. eexists. vm_compute. repeat split.
Qed.

(* --whitespace with a digit as insertion code: from_pqr_line silently reads it
   as x and shifts every later field by one (pdb2pqr before the repair of C08-F5
   read the same atom with resSeq 121) *)
Theorem ws_digit_ins_refuted :
  exists a p, in_quantifier a = true /\ fixed_ok false a = true /\ a_ins a = "1" /\
    a_x a = mkfx false 1000 /\
    tokens (ws_line false a) =
      ["ATOM"; "1"; "CA"; "ALA"; "12"; "1"; "1.000"; "-2.500"; "3.125"; "-0.5000"; "1.8000"] /\
    from_pqr_line (ws_line false a) = PAtom p /\
    p_res_seq p = 12%Z /\ p_ins p = None /\ p_x p = PF false 1 0 /\ p_y p = PF false 1000 3 /\
    p_radius p = PF true 5000 4.
Proof.
  exists wit_digit_ins. eexists. vm_compute. repeat split.
Qed.

(* regression cases, the inputs of the repaired findings: chain A + resSeq 1000
   (C08-F4), resSeq 12 + iCode B (C08-F5), charge -10.5 and radius 10.5
   (z|charge|radius fusion; outside in_quantifier), the "#" trailer of mmCIF
   input (C08-F7).  Each is written as shown and read back whole.  The harness
   checks that the real code writes these lines. *)
Theorem ws_repaired_witnesses :
  (in_quantifier wit_chain_resseq = true /\ ws_ok true wit_chain_resseq = true /\
   ws_line true wit_chain_resseq =
     "ATOM       1  CA   ALA A 1000        1.000   -2.500    3.125  -0.5000  1.8000" ++ nl /\
   from_pqr_line (ws_line true wit_chain_resseq) = PAtom (expected_ws true wit_chain_resseq)) /\
  (in_quantifier wit_inscode = true /\ ws_ok true wit_inscode = true /\
   ws_ok false wit_inscode = true /\
   ws_line false wit_inscode =
     "ATOM       1  CA   ALA     12 B      1.000   -2.500    3.125  -0.5000  1.8000" ++ nl /\
   ws_line true wit_inscode =
     "ATOM       1  CA   ALA A   12 B      1.000   -2.500    3.125  -0.5000  1.8000" ++ nl /\
   p_ins (expected_ws false wit_inscode) = Some "B" /\
   from_pqr_line (ws_line false wit_inscode) = PAtom (expected_ws false wit_inscode) /\
   from_pqr_line (ws_line true wit_inscode) = PAtom (expected_ws true wit_inscode)) /\
  (ws_ok false wit_charge = true /\
   tokens (ws_line false wit_charge) =
     ["ATOM"; "1"; "CA"; "ALA"; "12"; "1.000"; "-2.500"; "3.125"; "-10.5000"; "1.8000"] /\
   from_pqr_line (ws_line false wit_charge) = PAtom (expected_ws false wit_charge)) /\
  (ws_ok false wit_radius = true /\
   tokens (ws_line false wit_radius) =
     ["ATOM"; "1"; "CA"; "ALA"; "12"; "1.000"; "-2.500"; "3.125"; "-0.5000"; "10.5000"] /\
   from_pqr_line (ws_line false wit_radius) = PAtom (expected_ws false wit_radius)) /\
  (file_chunks true true (print_atoms false [base_atom]) =
     [ws_line false (with_serial 1 base_atom); "#" ++ nl] /\
   from_pqr_line ("#" ++ nl) = PNone /\
   read_pqr (file_chunks true true (print_atoms false [base_atom])) =
     inl [expected_ws false (with_serial 1 base_atom)]).
Proof. vm_compute. repeat split. Qed.

(* non-vacuity of the guards: boundary atoms satisfy them *)
Definition edge_atom : atom :=
  mkatom "HETATM" 99999 "HD11" "LIG1" "Z" (-999) "X" (mkfx true 999999) (mkfx false 9999999)
         (mkfx true 0) (Some (mkfx true 999999)) (Some (mkfx false 999999)).
Definition edge_atom_ws : atom :=
  mkatom "HETATM" 99999 "HD11" "LIG1" "Z" (-99) "" (mkfx true 999999) (mkfx false 9999999)
         (mkfx true 0) (Some (mkfx true 99999)) None.
(* inside the quantifier, every --whitespace token at its widest: chain id,
   4-character resSeq, insertion code *)
Definition edge_atom_ws4 : atom :=
  mkatom "HETATM" 99999 "HD11" "LIG1" "Z" (-999) "X" (mkfx true 999999) (mkfx false 9999999)
         (mkfx true 0) (Some (mkfx true 99999)) (Some (mkfx false 99999)).

Lemma guards_nonvacuous :
  fixed_ok true edge_atom = true /\
  pqr_string true edge_atom =
    "HETATM99999 HD11LIG1 Z-999X   -999.9999999.999  -0.000-99.999999.9999" /\
  read_fixed (pqr_string true edge_atom) = expected_fixed true edge_atom /\
  ws_ok true edge_atom = true /\
  ws_line true edge_atom =
    "HETATM 99999 HD11 LIG1 Z -999 X   -999.999 9999.999   -0.000 -99.9999 99.9999" ++ nl /\
  from_pqr_line (ws_line true edge_atom) = PAtom (expected_ws true edge_atom) /\
  ws_ok true edge_atom_ws = true /\ ws_ok false edge_atom_ws = true /\
  in_quantifier edge_atom_ws = true /\
  ws_line true edge_atom_ws =
    "HETATM 99999 HD11 LIG1 Z  -99     -999.999 9999.999   -0.000  -9.9999  0.0000" ++ nl /\
  from_pqr_line (ws_line true edge_atom_ws) = PAtom (expected_ws true edge_atom_ws) /\
  in_quantifier edge_atom_ws4 = true /\ ws_ok true edge_atom_ws4 = true /\
  ws_ok false edge_atom_ws4 = true /\
  p_chain (expected_ws true edge_atom_ws4) = Some "Z" /\
  p_res_seq (expected_ws true edge_atom_ws4) = (-999)%Z /\
  p_ins (expected_ws true edge_atom_ws4) = Some "X" /\
  from_pqr_line (ws_line true edge_atom_ws4) = PAtom (expected_ws true edge_atom_ws4) /\
  from_pqr_line (ws_line false edge_atom_ws4) = PAtom (expected_ws false edge_atom_ws4).
Proof. vm_compute. repeat split. Qed.

(* --keep-chain changes column 22 (index 21) only; no guard *)
Theorem chainflag_only_col22 a :
  exists pre c post,
    String.length pre = 21 /\ String.length c = 1 /\
    pqr_string true a = pre ++ c ++ post /\
    pqr_string false a = pre ++ " " ++ post.
Proof.
  exists (take 6 (ljust 6 (a_type a)) ++ take 5 (rjust 5 (Z_to_string (a_serial a))) ++ " "
          ++ name_field (a_name a) ++ res_field (a_res_name a) ++ " "),
         (take 1 (ljust 1 (a_chain a))),
         (take 4 (rjust 4 (Z_to_string (a_res_seq a))) ++ ins_field (a_ins a)
          ++ coord_field (a_x a) ++ coord_field (a_y a) ++ coord_field (a_z a)
          ++ charge_field (a_charge a) ++ radius_field (a_radius a)).
  repeat split.
  - rewrite !length_app, length_take_ljust, length_take_rjust, length_name_field,
      length_res_field. reflexivity.
  - apply length_take_ljust.
  - unfold pqr_string, common_string. rewrite !app_assoc_s. reflexivity.
  - unfold pqr_string, common_string. rewrite !app_assoc_s. reflexivity.
Qed.

(* TER / END lines never reach a --whitespace file *)
Lemma ws_drops_ter cif :
  write_line true cif (item_text ItTer) = "" /\ write_line true cif (item_text ItTerEnd) = "".
Proof. split; reflexivity. Qed.

Fixpoint atom_lines (l : list item) : list string :=
  match l with
  | [] => []
  | ItAtom s :: r => s :: atom_lines r
  | _ :: r => atom_lines r
  end.

(* line i renders atom i with serial i+1 *)
Fixpoint numbered (cf : bool) (i : nat) (l : list atom) : list string :=
  match l with
  | [] => []
  | a :: r => pqr_string cf (with_serial (Z.of_nat i + 1) a) :: numbered cf (S i) r
  end.

Lemma order_preserved_from cf l : forall i cur,
  atom_lines (print_items_from cf i cur l) = numbered cf i l.
Proof.
  induction l as [|a r IH]; intros i cur; simpl; [reflexivity|].
  destruct cur as [c|]; [destruct (String.eqb (a_chain a) c)|]; simpl; now rewrite IH.
Qed.

Theorem order_preserved cf l : atom_lines (print_items cf l) = numbered cf 0 l.
Proof. apply order_preserved_from. Qed.

Lemma numbered_nth cf l : forall k i,
  nth_error (numbered cf k l) i =
  option_map (fun a => pqr_string cf (with_serial (Z.of_nat (k + i) + 1) a)) (nth_error l i).
Proof.
  induction l as [|a r IH]; intros k [|i]; simpl; try reflexivity.
  - now rewrite Nat.add_0_r.
  - rewrite IH. now replace (S k + i) with (k + S i) by lia.
Qed.

Theorem serial_is_position cf l i :
  nth_error (atom_lines (print_items cf l)) i =
  option_map (fun a => pqr_string cf (with_serial (Z.of_nat i + 1) a)) (nth_error l i).
Proof. rewrite order_preserved. apply (numbered_nth cf l 0 i). Qed.

Lemma length_numbered cf l : forall k, List.length (numbered cf k l) = List.length l.
Proof. induction l; intros k; simpl; auto. Qed.

Definition all_types_ok (l : list atom) : Prop := forall a, In a l -> type_ok a = true.

Lemma is_atom_line_pqr cf a tail : type_ok a = true -> is_atom_line (pqr_string cf a ++ tail) = true.
Proof.
  intros H. unfold is_atom_line, pqr_string, common_string.
  destruct (type_ok_cases a H) as [E|E]; rewrite E; reflexivity.
Qed.

Lemma numbered_atom_lines cf l : all_types_ok l -> forall i,
  Forall (fun s => is_atom_line (s ++ nl) = true) (numbered cf i l).
Proof.
  induction l as [|a r IH]; intros H i; constructor.
  - apply is_atom_line_pqr. exact (H a (or_introl eq_refl)).
  - apply IH. intros b Hb. apply H. now right.
Qed.

Lemma respace_nonempty s : is_empty (respace s) = false.
Proof. unfold respace. destruct (slice 0 6 s); reflexivity. Qed.

(* what print_pqr --whitespace keeps of print_biomolecule_atoms' lines: the
   atom lines, re-spaced *)
Lemma ws_chunks_items cif its :
  Forall (fun s => is_atom_line (s ++ nl) = true) (atom_lines its) ->
  written_chunks true cif (map item_text its) =
  map (fun s => respace (s ++ nl)) (atom_lines its).
Proof.
  unfold written_chunks. induction its as [|[s| |] r IH]; cbn [atom_lines map]; intros H.
  - reflexivity.
  - inversion H as [|? ? Hs Hr]; subst. unfold write_line at 1, item_text at 1.
    cbn [filter]. rewrite Hs, respace_nonempty. cbn [negb]. now rewrite IH.
  - rewrite (proj1 (ws_drops_ter cif)). now apply IH.
  - rewrite (proj2 (ws_drops_ter cif)). now apply IH.
Qed.

Lemma ws_chunks cf cif l : all_types_ok l ->
  written_chunks true cif (print_atoms cf l) =
  map (fun s => respace (s ++ nl)) (numbered cf 0 l).
Proof.
  intros H. rewrite <- order_preserved. apply ws_chunks_items.
  rewrite order_preserved. now apply numbered_atom_lines.
Qed.

Theorem ws_file_lines cf l : all_types_ok l ->
  print_pqr true false (print_atoms cf l) =
  String.concat "" (map (fun s => respace (s ++ nl)) (numbered cf 0 l)).
Proof.
  intros H. rewrite <- (ws_chunks cf false l H). unfold print_pqr, written_chunks.
  now rewrite app_empty_r, concat_nonempty.
Qed.

Definition num_cols : list (nat * nat) := [(30, 38); (38, 46); (46, 54); (54, 62); (62, 69)].

Definition num_tokens (a : atom) : list string :=
  [fmt_fixed 3 (a_x a); fmt_fixed 3 (a_y a); fmt_fixed 3 (a_z a);
   opt_fmt4 (a_charge a); opt_fmt4 (a_radius a)].

(* the five numeric tokens of the re-spaced line are the five numeric column
   slices of the default line, in order, whatever stands before them (guard:
   the numbers fit their columns) *)
Theorem respace_keeps_numeric_tokens_wide cf a :
  num_fits a = true ->
  exists front,
    tokens (ws_line cf a) = (front ++ num_tokens a)%list /\
    map (fun c => strip (slice (fst c) (snd c) (pqr_string cf a))) num_cols = num_tokens a.
Proof.
  intros H. apply num_fits_shows in H as (Hi & SX & SY & SZ & SC & SR).
  exists (concat (map tokens (map snd (firstn 9 (pqr_fields cf a))))). split.
  - rewrite (ws_line_tokens cf a Hi), <- (firstn_skipn 9 (pqr_fields cf a)) at 1.
    rewrite !map_app, concat_app. f_equal. cbn [pqr_fields skipn map snd concat].
    now rewrite (tokens_shows1 _ _ SX), (tokens_shows1 _ _ SY), (tokens_shows1 _ _ SZ),
      (tokens_shows1 _ _ SC), (tokens_shows1 _ _ SR)
      by auto using fmt_fixed_nonempty, opt_fmt4_nonempty.
  - unfold num_cols, num_tokens. cbn [map fst snd].
    rewrite pqr_string_cat, !slice_cat by now apply pqr_fitted.
    cbn [pqr_fields drop_cols take_cols Nat.sub Nat.compare].
    now rewrite (strip_shows _ _ SX), (strip_shows _ _ SY), (strip_shows _ _ SZ),
      (strip_shows _ _ SC), (strip_shows _ _ SR).
Qed.

Lemma num_ok_fits a : num_ok a = true -> num_fits a = true.
Proof.
  unfold num_ok, num_fits, fits. rewrite !andb_true_iff, !Nat.leb_le.
  intros [[[[[Hi Hx] Hy] Hz] Hch] Hrd]. repeat split; auto; lia.
Qed.

(* the same under num_ok (charge and radius one column narrower), the guard C09 states *)
Theorem respace_keeps_numeric_tokens cf a :
  num_ok a = true ->
  exists front,
    tokens (ws_line cf a) = (front ++ num_tokens a)%list /\
    map (fun c => strip (slice (fst c) (snd c) (pqr_string cf a))) num_cols = num_tokens a.
Proof. intros H. apply respace_keeps_numeric_tokens_wide, num_ok_fits, H. Qed.

Fixpoint all_ok (ok : atom -> bool) (i : nat) (l : list atom) : Prop :=
  match l with
  | [] => True
  | a :: r => ok (with_serial (Z.of_nat i + 1) a) = true /\ all_ok ok (S i) r
  end.

Fixpoint renumbered (i : nat) (l : list atom) : list atom :=
  match l with
  | [] => []
  | a :: r => with_serial (Z.of_nat i + 1) a :: renumbered (S i) r
  end.

Lemma numbered_renumbered cf l : forall i, numbered cf i l = map (pqr_string cf) (renumbered i l).
Proof. induction l as [|a r IH]; intros i; simpl; [reflexivity | now rewrite IH]. Qed.

(* default layout, whole atom list: every line reads back to its atom, in
   order, with serial = position *)
Theorem fixed_file_roundtrip cf l :
  all_ok (fixed_ok cf) 0 l ->
  map read_fixed (atom_lines (print_items cf l)) = map (expected_fixed cf) (renumbered 0 l).
Proof.
  rewrite order_preserved. generalize 0. induction l as [|a r IH]; intros i H; [reflexivity|].
  destruct H as [Ha Hr]. cbn [numbered renumbered map].
  rewrite (fixed_roundtrip _ _ Ha), (IH _ Hr). reflexivity.
Qed.

Lemma write_line_default s : write_line false false s = s.
Proof. unfold write_line. now rewrite orb_true_r. Qed.

Lemma all_ok_types cf l : forall i, all_ok (ws_ok cf) i l -> all_types_ok l.
Proof.
  induction l as [|a r IH]; intros i H b Hb; [destruct Hb|].
  destruct H as [Ha Hr]. destruct Hb as [<- | Hb]; [|exact (IH _ Hr b Hb)].
  apply ws_ok_spec in Ha as (F & _). now apply fixed_ok_spec in F.
Qed.

(* a trailing line the reader skips (the "#" of mmCIF input) changes nothing *)
Lemma read_pqr_skip_last xs t : from_pqr_line t = PNone -> read_pqr (xs ++ [t]) = read_pqr xs.
Proof.
  intros H. induction xs as [|x r IH]; cbn [List.app read_pqr].
  - now rewrite H.
  - rewrite IH. reflexivity.
Qed.

Lemma hash_line_skipped : from_pqr_line ("#" ++ nl) = PNone.
Proof. reflexivity. Qed.

(* --whitespace file, whole atom list, PDB or mmCIF input: pdb2pqr's own reader
   returns every atom, in order, with serial = position *)
Theorem ws_file_roundtrip cf cif l :
  all_ok (ws_ok cf) 0 l ->
  read_pqr (file_chunks true cif (print_atoms cf l)) =
  inl (map (expected_ws cf) (renumbered 0 l)).
Proof.
  intros H. unfold file_chunks.
  rewrite (ws_chunks cf cif l (all_ok_types cf l 0 H)).
  assert (R : read_pqr (map (fun s => respace (s ++ nl)) (numbered cf 0 l)) =
              inl (map (expected_ws cf) (renumbered 0 l))).
  { revert H. generalize 0. induction l as [|a r IH]; intros i H; [reflexivity|].
    destruct H as [Ha Hr]. cbn [numbered renumbered map read_pqr].
    fold (ws_line cf (with_serial (Z.of_nat i + 1) a)).
    rewrite (ws_roundtrip _ _ Ha), (IH _ Hr). reflexivity. }
  destruct cif.
  - rewrite (read_pqr_skip_last _ _ hash_line_skipped). exact R.
  - rewrite app_nil_r. exact R.
Qed.
