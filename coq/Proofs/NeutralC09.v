(* The --neutraln / --neutralc part of C09, on top of C02's model of set_termini /
   set_state (Model/States.v, Proofs/States.v) and of the generated state tables.
   Which residues an option can touch is a fact about flags ([term_prefix]); how much the
   charge moves is a fact about rows of the state table ([neutral_shift_table]: a NEUTRAL-N
   state carries one unit less than the N state of the same residue, a NEUTRAL-C state one
   more than the C state); an induction over the residue list adds the shifts up.  The two
   sides meet in the names ([row_prefix_from_flags]).  WHICH rows a residue has in the two
   runs is not derived from the termini model: [step_ok] is a hypothesis. *)
From Coq Require Import List Bool ZArith Arith Lia.
From PV Require Generated.States Generated.FF_PARSE Generated.StatesFF_PARSE.
From PV Require Import Model.ForceField Model.States Proofs.States.
Import ListNotations.

Definition base_opts : opts := mkopts false false.

(* a residue that carries no terminus flag has the same (empty) terminus state
   under every option setting *)
Lemma term_prefix_internal o1 o2 cls r :
  rs_n r = false -> rs_c r = false -> term_prefix o1 cls r = term_prefix o2 cls r.
Proof. intros Hn Hc. unfold term_prefix. now rewrite Hn, Hc. Qed.

(* --neutraln alone never touches a residue without the N flag, --neutralc alone
   never one without the C flag (or with both flags: the N name wins) *)
Lemma term_prefix_neutraln_only o cls r :
  rs_n r = false -> term_prefix (mkopts true (o_neutralc o)) cls r = term_prefix (mkopts false (o_neutralc o)) cls r.
Proof. intros Hn. unfold term_prefix. now rewrite Hn. Qed.

Lemma term_prefix_neutralc_only o cls r :
  rs_c r = false \/ rs_n r = true ->
  term_prefix (mkopts (o_neutraln o) true) cls r = term_prefix (mkopts (o_neutraln o) false) cls r.
Proof.
  intros [Hc | Hn]; unfold term_prefix; cbn [o_neutraln o_neutralc].
  - rewrite Hc. destruct (rs_n r); reflexivity.
  - rewrite Hn. reflexivity.
Qed.

(* the complete case analysis against the run without the flags: either nothing
   changes, or an N-flagged non-PRO residue goes N -> NEUTRAL-N under --neutraln,
   or a C-flagged (not N-flagged) residue goes C -> NEUTRAL-C under --neutralc *)
Theorem term_prefix_cases o cls r :
  term_prefix o cls r = term_prefix base_opts cls r
  \/ (rs_n r = true /\ cls <> C_PRO /\ o_neutraln o = true
      /\ term_prefix base_opts cls r = PN /\ term_prefix o cls r = PNN)
  \/ (rs_n r = false /\ rs_c r = true /\ o_neutralc o = true
      /\ term_prefix base_opts cls r = PC /\ term_prefix o cls r = PNC).
Proof.
  unfold term_prefix, base_opts. cbn [o_neutraln o_neutralc orb].
  destruct (rs_n r) eqn:Hn.
  - destruct (rd_nheavy2 (rs_d r)) eqn:H2; [left; now rewrite orb_true_r|].
    rewrite orb_false_r.
    destruct (o_neutraln o) eqn:On; [|left; reflexivity].
    destruct cls; try (right; left; repeat split; try reflexivity; discriminate).
    left; reflexivity.
  - destruct (rs_c r) eqn:Hc; [|left; reflexivity].
    destruct (o_neutralc o) eqn:Oc; [|left; reflexivity].
    right; right. repeat split.
Qed.

(* an N-terminal PRO is NPRO whatever the options say *)
Lemma term_prefix_pro o r : rs_n r = true -> term_prefix o C_PRO r = PN.
Proof. intros Hn. unfold term_prefix. now rewrite Hn. Qed.

Local Open Scope Z_scope.

(* one residue in the two runs (without / with the neutral flags): its row of the
   state table and its exact charge (in units of 1/SCALE) in each *)
Record rpair := mkrp { p_r1 : arow; p_q1 : Z; p_r2 : arow; p_q2 : Z }.

Definition shift_is (s : Z) (p : rpair) : bool :=
  match shift_of (ar_term (p_r1 p)) (ar_term (p_r2 p)) with
  | Some t => t =? s
  | None => false
  end.

Fixpoint count_if {A} (f : A -> bool) (l : list A) : nat :=
  match l with
  | [] => O
  | x :: r => (if f x then 1 else 0)%nat + count_if f r
  end.

(* neutralised N-termini: rows go N -> NEUTRAL-N; C-termini: C -> NEUTRAL-C *)
Definition n_neutralised (l : list rpair) : nat := count_if (shift_is (-1)) l.
Definition c_neutralised (l : list rpair) : nat := count_if (shift_is 1) l.

Section Shift.
  Variable m : ffmap.
  Variable exc : list nat.
  Variable rows : list arow.

  (* same state (same row, same atoms, same charge) in both runs *)
  Definition unchanged (p : rpair) : Prop := p_r2 p = p_r1 p /\ p_q2 p = p_q1 p.

  (* the terminus was actually neutralised: same residue type and side-chain
     state, the row moves N -> NEUTRAL-N or C -> NEUTRAL-C, the new state is not one
     of the table's known exceptions, both states fully parameterised *)
  Definition neutralised (p : rpair) : Prop :=
    In (p_r1 p) rows /\ In (p_r2 p) rows
    /\ ar_cls (p_r1 p) = ar_cls (p_r2 p) /\ ar_state (p_r1 p) = ar_state (p_r2 p)
    /\ ~ In (ar_key (p_r2 p)) exc
    /\ (exists s, shift_of (ar_term (p_r1 p)) (ar_term (p_r2 p)) = Some s)
    /\ In (p_q1 p) (row_charges m (p_r1 p)) /\ In (p_q2 p) (row_charges m (p_r2 p)).

  Definition step_ok (p : rpair) : Prop := unchanged p \/ neutralised p.

  Hypothesis table : check_neutral_shift m exc rows = true.

  Lemma shift_of_self t : shift_of t t = None.
  Proof. destruct t; reflexivity. Qed.

  Lemma shift_of_cases t1 t2 s : shift_of t1 t2 = Some s ->
    (t1 = T_N /\ t2 = T_NN /\ s = -1) \/ (t1 = T_C /\ t2 = T_NC /\ s = 1).
  Proof. destruct t1, t2; cbn; intro H; inversion H; auto. Qed.

  Lemma unchanged_same r q : unchanged (mkrp r q r q).
  Proof. split; reflexivity. Qed.

  Lemma unchanged_no_shift p s : unchanged p -> shift_is s p = false.
  Proof. intros [E _]. unfold shift_is. now rewrite E, shift_of_self. Qed.

  Lemma neutralised_charge p : neutralised p ->
    exists s, shift_of (ar_term (p_r1 p)) (ar_term (p_r2 p)) = Some s /\ p_q2 p = p_q1 p + s * SCALE.
  Proof.
    intros (H1 & H2 & Ec & Es & Hk & [s Hs] & Hq1 & Hq2). exists s. split; [exact Hs|].
    exact (neutral_shift_table m exc rows table _ _ s H1 H2 Ec Es Hk Hs _ _ Hq1 Hq2).
  Qed.

  (* ALL residue lists: the exact total charge moves by -1 per neutralised
     N-terminus and +1 per neutralised C-terminus *)
  Theorem neutral_shift_total : forall l : list rpair,
    Forall step_ok l ->
    zsum (map p_q2 l)
    = zsum (map p_q1 l) + (Z.of_nat (c_neutralised l) - Z.of_nat (n_neutralised l)) * SCALE.
  Proof.
    induction 1 as [|p l Hp Hl IH].
    - reflexivity.
    - unfold n_neutralised, c_neutralised in *. cbn [map count_if].
      change (zsum (p_q2 p :: map p_q2 l)) with (p_q2 p + zsum (map p_q2 l)).
      change (zsum (p_q1 p :: map p_q1 l)) with (p_q1 p + zsum (map p_q1 l)).
      rewrite IH. destruct Hp as [Hu | Hn].
      + rewrite !(unchanged_no_shift p _ Hu). destruct Hu as [_ Eq]. rewrite Eq. cbn [Nat.add]. lia.
      + destruct (neutralised_charge p Hn) as (s & Hs & Eq). rewrite Eq.
        unfold shift_is. rewrite Hs.
        destruct (shift_of_cases _ _ _ Hs) as [(_ & _ & ->) | (_ & _ & ->)]; cbn [Z.eqb Pos.eqb Nat.add];
          rewrite ?Nat2Z.inj_succ; lia.
  Qed.

  (* a residue whose state differs between the runs is a terminus going
     N -> NEUTRAL-N or C -> NEUTRAL-C; in particular every non-terminal residue
     (row kind T_I) and every residue already neutral is unchanged *)
  Theorem neutral_changes_only_termini : forall p, step_ok p ->
    unchanged p
    \/ (ar_term (p_r1 p) = T_N /\ ar_term (p_r2 p) = T_NN /\ p_q2 p = p_q1 p - SCALE)
    \/ (ar_term (p_r1 p) = T_C /\ ar_term (p_r2 p) = T_NC /\ p_q2 p = p_q1 p + SCALE).
  Proof.
    intros p [Hu | Hn]; [left; exact Hu | right].
    destruct (neutralised_charge p Hn) as (s & Hs & Eq).
    destruct (shift_of_cases _ _ _ Hs) as [(E1 & E2 & ->) | (E1 & E2 & ->)]; [left | right];
      repeat split; auto; lia.
  Qed.

  Corollary neutral_internal_unchanged : forall p, step_ok p -> ar_term (p_r1 p) = T_I -> unchanged p.
  Proof.
    intros p H Ht. destruct (neutral_changes_only_termini p H) as [U | [[E _] | [E _]]];
      [exact U | rewrite Ht in E; discriminate E | rewrite Ht in E; discriminate E].
  Qed.
End Shift.
Local Close Scope Z_scope.

(* the row kinds of the generated table agree with the name prefixes of layer 1 *)
Definition prefix_of_tkind (cls : aclass) (t : tkind) : prefix :=
  match t with
  | T_I => PNone
  | T_N | T_N_C | T_N_NC => PN
  | T_C => PC
  | T_NC => PNC
  | T_NN | T_NN_C | T_NN_NC => match cls with C_PRO => PN | _ => PNN end
  end.

Definition check_term_prefix (rows : list arow) : bool :=
  forallb (fun r => prefix_eqb (fst (ar_name r)) (prefix_of_tkind (ar_cls r) (ar_term r))) rows.

Lemma term_prefix_table rows : check_term_prefix rows = true ->
  forall r, In r rows -> fst (ar_name r) = prefix_of_tkind (ar_cls r) (ar_term r).
Proof.
  unfold check_term_prefix. rewrite forallb_forall. intros H r Hr. exact (prefix_eqb_eq _ _ (H r Hr)).
Qed.

Lemma row_prefix_from_flags ids rows :
  check_term_prefix rows = true -> forallb (arow_name_ok ids) rows = true ->
  forall row d o r, In row rows -> In d (ar_descs row) -> patch_set_ok o r ->
    ad_nterm d = rs_n r -> ad_cterm d = rs_c r -> ad_patches d = rs_patches r ->
    prefix_of_tkind (ar_cls row) (ar_term row) = term_prefix o (ad_cls d) r.
Proof.
  intros HT HN row d o r Hrow Hd HP En Ec Ep.
  rewrite <- (term_prefix_table rows HT row Hrow), <- (state_from_flags o r d HP En Ec Ep).
  destruct (arows_names_sound ids rows HN row Hrow) as [Hname _]. specialize (Hname d Hd).
  rewrite set_state_spec in Hname. destruct (spec_base d); [|discriminate Hname].
  injection Hname as <-. reflexivity.
Qed.

(* Residues that are BOTH ends of their chain (one-residue amino chains): each flag
   acts only through the role it is allowed to touch. *)

(* name level (C02's model of set_state): the residue carries both flags, the N
   name wins; --neutralc therefore never changes its state, --neutraln changes
   it N -> NEUTRAL-N (unless PRO / already neutral through two heavy N bonds) *)
Theorem term_prefix_both_ends o cls r :
  rs_n r = true -> rs_c r = true ->
  term_prefix (mkopts (o_neutraln o) true) cls r = term_prefix (mkopts (o_neutraln o) false) cls r
  /\ (cls <> C_PRO -> rd_nheavy2 (rs_d r) = false ->
      term_prefix (mkopts true (o_neutralc o)) cls r = PNN
      /\ term_prefix (mkopts false (o_neutralc o)) cls r = PN).
Proof.
  intros Hn Hc. split.
  - apply term_prefix_neutralc_only. now right.
  - intros Hp H2. unfold term_prefix. cbn [o_neutraln o_neutralc]. rewrite Hn, H2. cbn [orb].
    destruct cls; try (split; reflexivity). now contradiction Hp.
Qed.

(* table level: the rows of a both-ends residue that differ only in the C-terminal
   patch (T_N_C / T_N_NC, and T_NN_C / T_NN_NC) carry the same force-field name, so
   --neutralc cannot change which parameters such a residue receives *)
Definition c_only_pair (t1 t2 : tkind) : bool :=
  match t1, t2 with T_N_C, T_N_NC | T_NN_C, T_NN_NC => true | _, _ => false end.

Definition check_both_ends_names (rows : list arow) : bool :=
  forallb (fun r1 => forallb (fun r2 =>
    if same_residue r1 r2 && c_only_pair (ar_term r1) (ar_term r2)
    then sname_eqb (ar_name r1) (ar_name r2) && Pos.eqb (ar_ff r1) (ar_ff r2)
    else true) rows) rows.

Lemma both_ends_table rows : check_both_ends_names rows = true ->
  forall r1 r2, In r1 rows -> In r2 rows -> same_residue r1 r2 = true ->
    c_only_pair (ar_term r1) (ar_term r2) = true ->
    ar_name r1 = ar_name r2 /\ ar_ff r1 = ar_ff r2.
Proof.
  unfold check_both_ends_names. intros H r1 r2 H1 H2 Hs Hp.
  rewrite forallb_forall in H. specialize (H r1 H1). rewrite forallb_forall in H. specialize (H r2 H2).
  rewrite Hs, Hp in H. cbn [andb] in H. apply andb_true_iff in H. destruct H as [Hn Hf].
  split; [now apply sname_eqb_eq | now apply Pos.eqb_eq].
Qed.

Lemma generated_term_prefix : check_term_prefix Generated.States.arows = true.
Proof. vm_compute. reflexivity. Qed.

Lemma generated_both_ends_names : check_both_ends_names Generated.States.arows = true.
Proof. vm_compute. reflexivity. Qed.

(* the both-ends rows exist for every residue class (non-vacuity of the table fact) *)
Lemma generated_both_ends_rows_exist :
  List.length (filter (fun r1 => existsb (fun r2 => same_residue r1 r2 && c_only_pair (ar_term r1) (ar_term r2))
                                         Generated.States.arows) Generated.States.arows) <> 0.
Proof. vm_compute. discriminate. Qed.

(* non-vacuity on the PARSE table, with the first five rows of the generated state table
   (its ALA rows): rows 1 -> 3 go N -> NEUTRAL-N, row 0 is internal and unchanged, rows
   2 -> 4 go C -> NEUTRAL-C; neutral_nonvacuous checks the kinds T_N, T_NN, T_I, the
   charges and the two shifts *)
Definition dummy_row : arow := mkarow 0 C_ALA B_ALA T_I (PNone, B_ALA) 1%positive 0%Z [] [].
Definition pick (k : nat) : arow := nth k Generated.States.arows dummy_row.
Definition charge_of (r : arow) : Z := hd 0%Z (row_charges StatesFF_PARSE.built r).

Definition ex_pairs : list rpair :=
  [mkrp (pick 1) (charge_of (pick 1)) (pick 3) (charge_of (pick 3));
   mkrp (pick 0) (charge_of (pick 0)) (pick 0) (charge_of (pick 0));
   mkrp (pick 2) (charge_of (pick 2)) (pick 4) (charge_of (pick 4))].

Lemma pick_neutralised a b qa qb s :
  (a <? List.length Generated.States.arows)%nat = true -> (b <? List.length Generated.States.arows)%nat = true ->
  ar_cls (pick a) = ar_cls (pick b) -> ar_state (pick a) = ar_state (pick b) ->
  mem_nat (ar_key (pick b)) StatesFF_PARSE.known_exceptions = false ->
  shift_of (ar_term (pick a)) (ar_term (pick b)) = Some s ->
  row_charges StatesFF_PARSE.built (pick a) = [qa] -> row_charges StatesFF_PARSE.built (pick b) = [qb] ->
  neutralised StatesFF_PARSE.built StatesFF_PARSE.known_exceptions Generated.States.arows
    (mkrp (pick a) qa (pick b) qb).
Proof.
  intros Ha Hb Ec Es Hk Hs Ea Eb. unfold neutralised. cbn [p_r1 p_r2 p_q1 p_q2]. rewrite Ea, Eb.
  apply Nat.ltb_lt in Ha, Hb.
  repeat split; try (now apply nth_In); try (now left); eauto.
  rewrite <- mem_nat_In. congruence.
Qed.

(* The one evaluation that goes through the parameter table ([built] is computed from the
   rows of the .DAT file at every evaluation).  Everything else below is about [pick k]
   alone and is checked by conversion; the charges must be rewritten before anything
   compares two of them, or conversion evaluates the table again. *)
Lemma ex_row_charges :
  let q k := row_charges StatesFF_PARSE.built (pick k) in
  q 0%nat = [0]%Z /\ q 1%nat = [SCALE] /\ q 2%nat = [- SCALE]%Z /\ q 3%nat = [0]%Z /\ q 4%nat = [0]%Z.
Proof. vm_compute. repeat split; reflexivity. Qed.

Example neutral_nonvacuous :
  Forall (step_ok StatesFF_PARSE.built StatesFF_PARSE.known_exceptions Generated.States.arows) ex_pairs
  /\ n_neutralised ex_pairs = 1 /\ c_neutralised ex_pairs = 1
  /\ map p_q1 ex_pairs = [SCALE; 0; - SCALE]%Z /\ map p_q2 ex_pairs = [0; 0; 0]%Z
  /\ ar_term (pick 1) = T_N /\ ar_term (pick 3) = T_NN /\ ar_term (pick 0) = T_I.
Proof.
  destruct ex_row_charges as (E0 & E1 & E2 & E3 & E4).
  unfold ex_pairs, charge_of. rewrite E0, E1, E2, E3, E4. cbn [hd].
  split; [|repeat split; reflexivity].
  repeat apply Forall_cons; [right | left; apply unchanged_same | right | apply Forall_nil].
  - now apply (pick_neutralised 1 3 _ _ (-1)%Z).
  - now apply (pick_neutralised 2 4 _ _ 1%Z).
Qed.
