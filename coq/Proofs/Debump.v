(* Proofs about the model of Debump.debump_residue (C04), for all residues (dihedral lists) and
   all initial angle lists.  The control-flow facts (Section Control: number of calls, no error
   path, indices in range) hold for ALL oracles (all score / conflict / measurement answers, over
   any world type).  The coordinate facts (the run is the recorded list of rotations, rigidity,
   unmoved atoms) are about [geo_oracle] with ANY score / conflict / measuring functions.  The
   net-rotation facts are over R, for any oracle whose measured dihedral after a rotation is the
   requested angle modulo 360. *)
From Coq Require Import List PArith Bool Arith ZArith Lia.
From Coq Require Import Reals Lra.
From PV Require Import Lib.Lists Model.ForceField Model.Topology Model.Moves Model.Quatfit Model.Debump.
From PV Require Import Proofs.Moves.
Import ListNotations.

Lemma nth_error_upd {X : Type} (l : list X) : forall n k (x : X),
  nth_error (upd n x l) k = if Nat.eqb k n then (match nth_error l k with Some _ => Some x | None => None end) else nth_error l k.
Proof.
  induction l as [|y t IH]; intros n k x.
  - destruct n, k; cbn [upd nth_error Nat.eqb]; try reflexivity. destruct (Nat.eqb k n); reflexivity.
  - destruct n, k; cbn [upd nth_error Nat.eqb]; try reflexivity. apply IH.
Qed.

Lemma upd_length {X : Type} (l : list X) : forall n (x : X), List.length (upd n x l) = List.length l.
Proof. induction l as [|y t IH]; intros [|n] x; cbn [upd length]; auto. Qed.

Section Control.
  Context {A : Type} (ar : Arith A) {W : Type} (o : oracle A W).
  Variable dihs : list dihedral.

  Definition scan_state (r : scan_out A W) : dstate A W :=
    match r with ScanTrue st => st | ScanDone st _ _ _ => st end.
  Definition att_state (r : att_out A W) : dstate A W :=
    match r with AttTrue st => st | AttError st => st | AttNext st _ _ _ => st end.
  Definition has_angle (n : nat) (st : dstate A W) : Prop :=
    exists x, nth_error (st_dih st) n = Some (Some x).

  Lemma count_hits_bn cf mov i best bn :
    snd (count_hits cf mov i best bn) = bn \/ snd (count_hits cf mov i best bn) = Some i.
  Proof.
    unfold count_hits.
    apply (fold_left_ind (fun acc : nat * nat * option nat =>
             let r := let '(_, b, x) := acc in (b, x) in snd r = bn \/ snd r = Some i));
      [|left; reflexivity].
    intros [[sc b] x] name Hacc. cbn [snd] in *. destruct (mem name mov); [|exact Hacc].
    destruct (Nat.ltb b (S sc)); cbn [snd]; [right; reflexivity | exact Hacc].
  Qed.

  Lemma pick_loop_some (angles : list (option A)) cf old test : forall best bn n,
    (forall k, bn = Some k -> exists x, nth_error angles k = Some (Some x)) ->
    pick_loop dihs angles cf old test best bn = Some n -> exists x, nth_error angles n = Some (Some x).
  Proof.
    induction test as [|i rest IH]; intros best bn n Hbn H; cbn [pick_loop] in H; [apply Hbn; exact H|].
    destruct (match old with Some o0 => Nat.eqb i o0 | None => false end); [eapply IH; eassumption|].
    destruct (nth_error angles i) as [[x|]|] eqn:E; try (eapply IH; eassumption).
    set (mov := match nth_error dihs i with Some d => d_mov d | None => [] end) in H.
    destruct (list_eqb cf mov).
    - inversion H; subst. eauto.
    - pose proof (count_hits_bn cf mov i best bn) as Hc.
      destruct (count_hits cf mov i best bn) as [b' bn']. cbn [snd] in Hc.
      eapply IH; [|exact H]. intros k Hk. destruct Hc as [-> | ->]; [apply Hbn; exact Hk|].
      inversion Hk; subst. eauto.
  Qed.

  Lemma pick_some (angles : list (option A)) cf old n :
    pick_dihedral_angle dihs angles cf old = Some n -> exists x, nth_error angles n = Some (Some x).
  Proof. unfold pick_dihedral_angle. apply pick_loop_some. intros k Hk. discriminate. Qed.

  Lemma pick_lt (angles : list (option A)) cf old n :
    pick_dihedral_angle dihs angles cf old = Some n -> n < List.length angles.
  Proof. intros H. destruct (pick_some _ _ _ _ H) as [x Hx]. apply nth_error_Some. rewrite Hx. discriminate. Qed.

  (* what one set_dihedral_angle call on an index holding the angle [old] does *)
  Definition rotated (st : dstate A W) (n : nat) (a old : A) : dstate A W :=
    let diff := a_sub A ar a old in
    let r := o_set A W o (st_w st) n a diff in
    mkst (upd n (Some (fst r)) (st_dih st)) ((n, diff) :: st_ops st) ((n, a) :: st_calls st) (st_err st) (snd r).

  Lemma set_spec st n a old :
    nth_error (st_dih st) n = Some (Some old) -> set_dihedral_angle ar o st n a = rotated st n a old.
  Proof.
    intros E. unfold set_dihedral_angle, rotated. rewrite E. cbv zeta.
    destruct (o_set A W o (st_w st) n a (a_sub A ar a old)). reflexivity.
  Qed.

  Lemma rotated_has_angle st n a old :
    nth_error (st_dih st) n = Some (Some old) -> has_angle n (rotated st n a old).
  Proof. intros E. unfold has_angle, rotated. cbn [st_dih]. rewrite nth_error_upd, Nat.eqb_refl, E. eauto. Qed.

  (* A proof principle for the control flow.  Read [R k st st'] as "st' is reached from st with
     at most k calls of set_dihedral_angle": whatever graded relation between states is
     reflexive (at every grade) and transitive (grades add) and holds across each elementary
     step holds across scan / attempt / attempts.  The error branches of the model never come up: pick_dihedral_angle returns an
     index that holds an angle and a rotation leaves one there, so a set_dihedral_angle step has
     to be considered on such an index only, where it is [rotated]. *)
  Section Rel.
    Variable R : nat -> dstate A W -> dstate A W -> Prop.
    Hypothesis R_refl : forall k st, R k st st.
    Hypothesis R_trans : forall j k a b c, R j a b -> R k b c -> R (j + k) a c.
    Hypothesis R_score : forall n st, R 0 st (with_w st (snd (o_score A W o (st_w st) n))).
    Hypothesis R_conf : forall st, R 0 st (with_w st (snd (o_conf A W o (st_w st)))).
    Hypothesis R_set : forall n st a old, nth_error (st_dih st) n = Some (Some old) -> R 1 st (rotated st n a old).

    Lemma set_rel n st a : has_angle n st ->
      R 1 st (set_dihedral_angle ar o st n a) /\ has_angle n (set_dihedral_angle ar o st n a).
    Proof.
      intros [old E]. rewrite (set_spec st n a old E). split; [apply R_set | apply rotated_has_angle]; exact E.
    Qed.

    (* that the index still holds an angle afterwards is part of the statement because the
       induction needs it: [R_set] speaks of such indices only *)
    Lemma scan_rel n fuel : forall i orig st bs ba fd, has_angle n st ->
      R fuel st (scan_state (scan ar o fuel i n orig st bs ba fd)) /\
      has_angle n (scan_state (scan ar o fuel i n orig st bs ba fd)).
    Proof.
      induction fuel as [|f IH]; intros i orig st bs ba fd Hn; [split; [apply R_refl | exact Hn]|].
      cbn [scan].
      destruct (set_rel n st (step_angle ar orig i) Hn) as [H1 Hn1].
      set (st1 := set_dihedral_angle ar o st n (step_angle ar orig i)) in *.
      pose proof (R_score n st1) as H2.
      destruct (o_score A W o (st_w st1) n) as [score w2]. cbn [snd] in H2.
      set (st2 := with_w st1 w2) in *.
      assert (H12 : R 1 st st2) by exact (R_trans 1 0 _ _ _ H1 H2).
      destruct (a_eqb A ar score (a_zero A ar)).
      - pose proof (R_conf st2) as H3. cbn [st_w with_w st2] in H3.
        destruct (o_conf A W o w2) as [cn w3]. cbn [snd] in H3.
        assert (H13 : R (S f) st (with_w st2 w3)) by exact (R_trans 1 f _ _ _ H12 (R_trans 0 f _ _ _ H3 (R_refl f _))).
        destruct cn; cbn [scan_state]; split; solve [exact H13 | exact Hn1].
      - assert (H : forall bs' ba' fd',
                  R (S f) st (scan_state (scan ar o f (S i) n orig st2 bs' ba' fd')) /\
                  has_angle n (scan_state (scan ar o f (S i) n orig st2 bs' ba' fd'))).
        { intros. destruct (IH (S i) orig st2 bs' ba' fd' Hn1) as [H Hn']. split; [exact (R_trans 1 f _ _ _ H12 H) | exact Hn']. }
        destruct (a_ltb A ar score bs);
          [destruct (a_ltb A ar (a_small A ar) (a_abs A ar (a_sub A ar bs score)))|]; apply H.
    Qed.

    Lemma attempt_rel n st : has_angle n st -> R DEBUMP_ANGLE_STEPS st (att_state (attempt ar o st n)).
    Proof.
      intros [orig E]. unfold attempt.
      pose proof (R_score n st) as H1.
      destruct (o_score A W o (st_w st) n) as [bs w1]. cbn [snd] in H1.
      set (st1 := with_w st w1) in *.
      change (st_dih st1) with (st_dih st). rewrite E.
      destruct (scan_rel n (DEBUMP_ANGLE_STEPS - 1) 1 orig st1 bs orig false) as [H2 Hn2]; [exists orig; exact E|].
      destruct (scan ar o (DEBUMP_ANGLE_STEPS - 1) 1 n orig st1 bs orig false) as [st'|st2 ba bsc fd];
        cbn [scan_state] in H2, Hn2.
      - exact (R_trans 0 _ _ _ _ H1 (R_trans (DEBUMP_ANGLE_STEPS - 1) 1 _ _ _ H2 (R_refl 1 _))).
      - destruct (set_rel n st2 ba Hn2) as [H3 _].
        pose proof (R_conf (set_dihedral_angle ar o st2 n ba)) as H4.
        destruct (o_conf A W o (st_w (set_dihedral_angle ar o st2 n ba))) as [cn w4]. cbn [snd] in H4.
        exact (R_trans 0 _ _ _ _ H1 (R_trans (DEBUMP_ANGLE_STEPS - 1) 1 _ _ _ H2 (R_trans 1 0 _ _ _ H3 H4))).
    Qed.

    Lemma attempts_rel fuel : forall st old conf,
      R (fuel * DEBUMP_ANGLE_STEPS) st (snd (attempts ar o dihs fuel st old conf)).
    Proof.
      induction fuel as [|f IH]; intros st old conf; [apply R_refl|].
      cbn [attempts]. destruct (pick_dihedral_angle dihs (st_dih st) conf old) as [n|] eqn:Ep;
        [|apply R_refl].
      pose proof (attempt_rel n st (pick_some _ _ _ _ Ep)) as H.
      destruct (attempt ar o st n) as [st'|st'|st' ba fd cn]; cbn [att_state snd] in *.
      1,2: exact (R_trans _ _ _ _ _ H (R_refl (f * DEBUMP_ANGLE_STEPS) st')).
      exact (R_trans _ _ _ _ _ H (IH st' (Some n) cn)).
    Qed.
  End Rel.

  Lemma attempts_inv (I : dstate A W -> Prop) :
    (forall n st, I st -> I (with_w st (snd (o_score A W o (st_w st) n)))) ->
    (forall st, I st -> I (with_w st (snd (o_conf A W o (st_w st))))) ->
    (forall n st a old, nth_error (st_dih st) n = Some (Some old) -> I st -> I (rotated st n a old)) ->
    forall fuel st old conf, I st -> I (snd (attempts ar o dihs fuel st old conf)).
  Proof. intros Hs Hc Hr fuel st old conf. apply (attempts_rel (fun _ a b => I a -> I b)); auto. Qed.

  Lemma scan_has_angle n fuel i orig st bs ba fd :
    has_angle n st -> has_angle n (scan_state (scan ar o fuel i n orig st bs ba fd)).
  Proof. intros H. apply (scan_rel (fun _ _ _ => True)); auto. Qed.

  Theorem debump_terminates_within angles w conf :
    List.length (ops_of (snd (debump_residue ar o dihs angles w conf))) <= DEBUMP_ANGLE_TEST_COUNT * DEBUMP_ANGLE_STEPS.
  Proof.
    unfold debump_residue, ops_of. rewrite rev_length.
    refine (attempts_rel (fun k a b => List.length (st_ops b) <= List.length (st_ops a) + k) _ _ _ _ _
              DEBUMP_ANGLE_TEST_COUNT (mkst angles [] [] false w) None conf);
      intros; cbn [with_w rotated st_ops length]; lia.
  Qed.

  (* calls and ops are recorded together *)
  Lemma calls_length_run angles w conf :
    let st := snd (debump_residue ar o dihs angles w conf) in
    List.length (calls_of st) = List.length (ops_of st).
  Proof.
    cbv zeta. unfold calls_of, ops_of.
    rewrite !rev_length, <- (map_length fst (st_calls _)), <- (map_length fst (st_ops _)). f_equal.
    apply (attempts_inv (fun st => map fst (st_calls st) = map fst (st_ops st))); auto.
    intros n st a old _ H. cbn [rotated st_calls st_ops map fst]. now rewrite H.
  Qed.

  (* the error paths of the model (TypeError / IndexError in the code) are never taken *)
  Theorem debump_no_error angles w conf : st_err (snd (debump_residue ar o dihs angles w conf)) = false.
  Proof. apply (attempts_inv (fun st => st_err st = false)); auto. Qed.

  (* every rotation is about an index inside residue.dihedrals *)
  Definition ops_in_range (st : dstate A W) : Prop :=
    Forall (fun op => fst op < List.length (st_dih st)) (st_ops st).

  Lemma debump_ops_in_range angles w conf :
    let st := snd (debump_residue ar o dihs angles w conf) in
    List.length (st_dih st) = List.length angles /\ Forall (fun op => fst op < List.length angles) (ops_of st).
  Proof.
    cbv zeta. unfold ops_of.
    pose (I := fun st : dstate A W => List.length (st_dih st) = List.length angles /\
                                      Forall (fun op => fst op < List.length angles) (st_ops st)).
    assert (H : I (snd (debump_residue ar o dihs angles w conf))).
    { apply (attempts_inv I); auto.
      - intros n st a old E [HL HF]. split; cbn [rotated st_dih st_ops]; [rewrite upd_length; exact HL|].
        constructor; [|exact HF]. cbn [fst]. rewrite <- HL. apply nth_error_Some. rewrite E. discriminate.
      - split; [reflexivity | constructor]. }
    destruct H as [HL HF]. split; [exact HL | apply Forall_rev, HF].
  Qed.

  Theorem debump_terminates_full angles w conf :
    let st := snd (debump_residue ar o dihs angles w conf) in
    List.length (ops_of st) <= DEBUMP_ANGLE_TEST_COUNT * DEBUMP_ANGLE_STEPS /\
    List.length (calls_of st) = List.length (ops_of st) /\
    st_err st = false /\
    List.length (st_dih st) = List.length angles /\
    Forall (fun op => fst op < List.length angles) (ops_of st).
  Proof.
    exact (conj (debump_terminates_within angles w conf)
          (conj (calls_length_run angles w conf)
          (conj (debump_no_error angles w conf) (debump_ops_in_range angles w conf)))).
  Qed.

  Lemma scan_found_false fuel : forall i n orig st bs ba fd st' ba' bs' ,
    scan ar o fuel i n orig st bs ba fd = ScanDone st' ba' bs' false -> fd = false /\ ba' = ba.
  Proof.
    induction fuel as [|f IH]; intros i n orig st bs ba fd st' ba' bs' H; cbn [scan] in H.
    - inversion H; subst. split; reflexivity.
    - destruct (o_score A W o (st_w (set_dihedral_angle ar o st n (step_angle ar orig i))) n) as [score w2].
      destruct (a_eqb A ar score (a_zero A ar)).
      + destruct (o_conf A W o w2) as [cn w3]. destruct cn; discriminate.
      + destruct (a_ltb A ar score bs);
          [destruct (a_ltb A ar (a_small A ar) (a_abs A ar (a_sub A ar bs score)))|];
          apply IH in H; [destruct H as [H _]; discriminate | exact H..].
  Qed.
End Control.

Section Geometry.
  Context {A P : Type} (ar : Arith A).
  Variable rotf : P -> P -> A -> P -> P.
  Variable dihs : list dihedral.
  Variable score_fn : (id -> P) -> nat -> A.
  Variable conf_fn : (id -> P) -> list id.
  Variable meas_fn : (id -> P) -> nat -> A.
  Let og := geo_oracle rotf dihs score_fn conf_fn meas_fn.

  Theorem debump_ops_are_rotations angles pos0 conf :
    let st := snd (debump_residue ar og dihs angles pos0 conf) in
    st_w st = apply_ops rotf dihs (ops_of st) pos0.
  Proof.
    apply (attempts_inv ar og dihs (fun st => st_w st = apply_ops rotf dihs (ops_of st) pos0)); auto.
    intros n st a old _ H. unfold ops_of, apply_ops in *. cbn [rotated st_w st_ops rev og geo_oracle o_set snd].
    rewrite fold_left_app, <- H. reflexivity.
  Qed.
End Geometry.

Lemma apply_ops_preserves {A P X : Type} (rotf : P -> P -> A -> P -> P) (dihs : list dihedral) (F : (id -> P) -> X) :
  (forall pos op, F (apply_op rotf dihs pos op) = F pos) ->
  forall ops pos, F (apply_ops rotf dihs ops pos) = F pos.
Proof.
  intros H ops pos. unfold apply_ops. apply fold_left_ind; [|reflexivity].
  intros p op Hp. now rewrite H.
Qed.

(* the distances inside a bonded star of the graph are the bond lengths and the 1-3
   distances *)

Section Rigid.
  Variables A P D : Type.
  Variable ar : Arith A.
  Variable dist : P -> P -> D.
  Variable rotf : P -> P -> A -> P -> P.
  Hypothesis rotf_iso : forall pb pc d x y, dist (rotf pb pc d x) (rotf pb pc d y) = dist x y.
  Hypothesis rotf_fix_b : forall pb pc d, rotf pb pc d pb = pb.
  Hypothesis rotf_fix_c : forall pb pc d, rotf pb pc d pc = pc.

  Variable keep : id -> bool.
  Variable g : graph.
  Variable dihs : list dihedral.
  Hypothesis dihs_ok : forall d, In d dihs -> rigid_ok keep g (d_b d) (d_c d) (d_mov d) = true.

  (* one operation is the [pos'] of Proofs/Moves.v for its dihedral *)
  Theorem apply_ops_star ops pos v u w :
    keep v = true -> star g v u -> star g v w -> keep u = true -> keep w = true ->
    dist (apply_ops rotf dihs ops pos u) (apply_ops rotf dihs ops pos w) = dist (pos u) (pos w).
  Proof.
    intros Kv Hu Hw Ku Kw. apply (apply_ops_preserves rotf dihs (fun p => dist (p u) (p w))).
    intros p op. unfold apply_op. destruct (nth_error dihs (fst op)) as [d|] eqn:E; [|reflexivity].
    exact (star_preserved P D dist (rotf (p (d_b d)) (p (d_c d)) (snd op)) (rotf_iso _ _ _) keep g (d_b d) (d_c d) (d_mov d) p
             (rotf_fix_b _ _ _) (rotf_fix_c _ _ _) (dihs_ok d (nth_error_In _ _ E)) v u w Kv Hu Hw Ku Kw).
  Qed.

  Lemma apply_ops_rigid ops pos :
    (forall u v, In v (nbrs g u) -> keep u = true -> keep v = true ->
       dist (apply_ops rotf dihs ops pos u) (apply_ops rotf dihs ops pos v) = dist (pos u) (pos v)) /\
    (forall u v w, In u (nbrs g v) -> In w (nbrs g v) -> keep u = true -> keep v = true -> keep w = true ->
       dist (apply_ops rotf dihs ops pos u) (apply_ops rotf dihs ops pos w) = dist (pos u) (pos w)).
  Proof. exact (star_bonds_angles keep g _ (apply_ops_star ops pos)). Qed.

  Theorem apply_ops_bond ops : forall pos u v,
    In u (nodes g) -> In v (nbrs g u) -> keep u = true -> keep v = true ->
    dist (apply_ops rotf dihs ops pos u) (apply_ops rotf dihs ops pos v) = dist (pos u) (pos v).
  Proof. intros pos u v _. apply apply_ops_rigid. Qed.

  Variable score_fn : (id -> P) -> nat -> A.
  Variable conf_fn : (id -> P) -> list id.
  Variable meas_fn : (id -> P) -> nat -> A.

  Theorem debump_rigid angles pos0 conf :
    let pos1 := st_w (snd (debump_residue ar (geo_oracle rotf dihs score_fn conf_fn meas_fn) dihs angles pos0 conf)) in
    (forall u v, In u (nodes g) -> In v (nbrs g u) -> keep u = true -> keep v = true ->
                 dist (pos1 u) (pos1 v) = dist (pos0 u) (pos0 v)) /\
    (forall u v w, In v (nodes g) -> In u (nbrs g v) -> In w (nbrs g v) ->
                   keep u = true -> keep v = true -> keep w = true ->
                   dist (pos1 u) (pos1 w) = dist (pos0 u) (pos0 w)).
  Proof.
    cbv zeta. rewrite (debump_ops_are_rotations ar rotf dihs score_fn conf_fn meas_fn angles pos0 conf).
    split; [intros u v _ | intros u v w _]; apply apply_ops_rigid.
  Qed.
End Rigid.

Lemma apply_ops_frame (A P : Type) (rotf : P -> P -> A -> P -> P) (dihs : list dihedral) ops : forall pos a,
  (forall d, In d dihs -> mem a (d_mov d) = false) ->
  apply_ops rotf dihs ops pos a = pos a.
Proof.
  intros pos a Ha. apply (apply_ops_preserves rotf dihs (fun p => p a)).
  intros p op. unfold apply_op. destruct (nth_error dihs (fst op)) as [d|] eqn:E; [|reflexivity].
  rewrite (Ha d (nth_error_In _ _ E)). reflexivity.
Qed.

Theorem debump_backbone_fixed (A P : Type) (ar : Arith A) (rotf : P -> P -> A -> P -> P) (dihs : list dihedral)
        (score_fn : (id -> P) -> nat -> A) (conf_fn : (id -> P) -> list id) (meas_fn : (id -> P) -> nat -> A)
        angles pos0 conf a :
  (forall d, In d dihs -> mem a (d_mov d) = false) ->
  st_w (snd (debump_residue ar (geo_oracle rotf dihs score_fn conf_fn meas_fn) dihs angles pos0 conf)) a = pos0 a.
Proof.
  intros Ha. rewrite (debump_ops_are_rotations ar rotf dihs score_fn conf_fn meas_fn angles pos0 conf).
  apply apply_ops_frame. exact Ha.
Qed.

(* the dihedral list of a template meets the hypothesis of debump_rigid when the table check holds *)
Lemma template_dihedrals_ok keep nm nt ct g dl :
  forallb (dihedral_ok keep nm nt ct g) dl = true ->
  forall d, In d (template_dihedrals nm nt ct g dl) ->
  rigid_ok keep g (d_b d) (d_c d) (d_mov d) = true /\
  existsb (fun a => mem a (nm_backbone nm)) (d_mov d) = false.
Proof.
  intros H d Hd. unfold template_dihedrals in Hd. rewrite forallb_forall in H.
  destruct (ranks nm nt ct g) as [rk|] eqn:E; [|destruct Hd].
  apply in_map_iff in Hd. destruct Hd as [[[[a b] c] e] [<- Hin]].
  specialize (H _ Hin). unfold dihedral_ok in H. rewrite E in H.
  apply andb_true_iff in H. destruct H as [H1 H2]. cbn [d_b d_c d_mov]. split; [exact H1|].
  apply negb_true_iff in H2. exact H2.
Qed.

Local Open Scope R_scope.

Definition cong360 (x y : R) : Prop := exists k : Z, x - y = 360 * IZR k.

Lemma cong360_refl x : cong360 x x.
Proof. exists 0%Z. simpl. lra. Qed.

Lemma cong360_step sum old a0 a m :
  cong360 sum (old - a0) -> cong360 m a -> cong360 (sum + (a - old)) (m - a0).
Proof.
  intros [k1 H1] [k2 H2]. exists (k1 - k2)%Z. rewrite minus_IZR. lra.
Qed.

Fixpoint sum_deltas (k : nat) (ops : list (nat * R)) : R :=
  match ops with
  | [] => 0
  | (n, d) :: t => (if Nat.eqb n k then d else 0) + sum_deltas k t
  end.

Section NetRotation.
  Context {W : Type} (o : oracle R W).
  Variable dihs : list dihedral.
  (* the measured dihedral is the requested one up to whole turns *)
  Hypothesis ideal : forall w n req d, cong360 (fst (o_set R W o w n req d)) req.

  Variable angles0 : list (option R).

  Definition net_inv (st : dstate R W) : Prop :=
    forall k, match nth_error angles0 k, nth_error (st_dih st) k with
              | Some (Some a0), Some (Some cur) => cong360 (sum_deltas k (st_ops st)) (cur - a0)
              | Some None, Some None => sum_deltas k (st_ops st) = 0
              | None, None => sum_deltas k (st_ops st) = 0
              | _, _ => False
              end.

  Lemma net_inv_spec st : net_inv st <-> forall k,
    (forall a0, nth_error angles0 k = Some (Some a0) ->
       exists cur, nth_error (st_dih st) k = Some (Some cur) /\ cong360 (sum_deltas k (st_ops st)) (cur - a0)) /\
    ((forall a0, nth_error angles0 k <> Some (Some a0)) ->
       nth_error (st_dih st) k = nth_error angles0 k /\ sum_deltas k (st_ops st) = 0).
  Proof.
    unfold net_inv. split; intros H k; specialize (H k).
    - destruct (nth_error angles0 k) as [[a0|]|], (nth_error (st_dih st) k) as [[cur|]|]; try contradiction.
      + split; [|intros N; destruct (N a0 eq_refl)].
        intros a E. injection E as <-. exists cur. split; [reflexivity | exact H].
      + split; [discriminate | intros _; split; [reflexivity | exact H]].
      + split; [discriminate | intros _; split; [reflexivity | exact H]].
    - destruct H as [Hv Hu]. destruct (nth_error angles0 k) as [[a0|]|].
      + destruct (Hv a0 eq_refl) as (cur & -> & H). exact H.
      + destruct Hu as [-> H]; [discriminate | exact H].
      + destruct Hu as [-> H]; [discriminate | exact H].
  Qed.

  Lemma rotated_net_inv n st a old :
    nth_error (st_dih st) n = Some (Some old) -> net_inv st -> net_inv (rotated RArith o st n a old).
  Proof.
    intros E H k. specialize (H k).
    cbn [rotated st_dih st_ops sum_deltas]. rewrite nth_error_upd. rewrite (Nat.eqb_sym k n).
    destruct (Nat.eqb n k) eqn:Enk.
    - apply Nat.eqb_eq in Enk. subst k. rewrite E in *.
      destruct (nth_error angles0 n) as [[a0|]|]; try contradiction.
      cbn [a_sub RArith]. rewrite Rplus_comm. apply cong360_step; [exact H | apply ideal].
    - destruct (nth_error angles0 k) as [[a0|]|], (nth_error (st_dih st) k) as [[cur|]|]; try contradiction;
        rewrite Rplus_0_l; exact H.
  Qed.

  Theorem debump_net_rotation_full w conf : net_inv (snd (debump_residue RArith o dihs angles0 w conf)).
  Proof.
    apply (attempts_inv RArith o dihs net_inv); auto using rotated_net_inv.
    intros k. cbn [st_dih st_ops sum_deltas]. destruct (nth_error angles0 k) as [[a0|]|]; try reflexivity.
    replace (a0 - a0) with 0 by lra. apply cong360_refl.
  Qed.

  (* one attempt that does not return True ends with set_dihedral_angle(anglenum, bestangle):
     the last call requests bestangle, the stored angle is bestangle modulo 360, and
     bestangle is the angle the attempt started from unless an improvement was found *)
  Theorem attempt_ends_at_bestangle st n orig st' ba fd cn :
    nth_error (st_dih st) n = Some (Some orig) ->
    attempt RArith o st n = AttNext st' ba fd cn ->
    hd_error (st_calls st') = Some (n, ba) /\
    (exists m, nth_error (st_dih st') n = Some (Some m) /\ cong360 m ba) /\
    (fd = false -> ba = orig).
  Proof.
    intros E H. unfold attempt in H.
    destruct (o_score R W o (st_w st) n) as [bs w1].
    cbn [with_w st_dih] in H. rewrite E in H.
    pose proof (scan_has_angle RArith o n (DEBUMP_ANGLE_STEPS - 1) 1 orig (with_w st w1) bs orig false
                  (ex_intro _ orig E)) as [old Hold].
    destruct (scan RArith o (DEBUMP_ANGLE_STEPS - 1) 1 n orig (with_w st w1) bs orig false) as [s|st2 ba2 bs2 fd2] eqn:ES;
      [discriminate|].
    cbn [scan_state] in Hold. rewrite (set_spec RArith o st2 n ba2 old Hold) in H.
    destruct (o_conf R W o (st_w (rotated RArith o st2 n ba2 old))) as [cn' w4].
    inversion H; subst st' ba fd cn. clear H.
    cbn [rotated with_w st_calls st_dih hd_error]. split; [reflexivity|]. split.
    - rewrite nth_error_upd, Nat.eqb_refl, Hold. eexists. split; [reflexivity | apply ideal].
    - intros ->. apply scan_found_false in ES. destruct ES as [_ ->]. reflexivity.
  Qed.
End NetRotation.

(* non-vacuity: a concrete residue with two dihedrals and an answer sequence with a fruitless
   attempt, an accepted one and a final one that returns True *)

Local Close Scope R_scope.
Local Open Scope Z_scope.

(* N=1 CA=2 C=3 CB=4 CG=5 CD=6; chi1 = N CA CB CG, chi2 = CA CB CG CD *)
Definition ex_graph : graph :=
  [(1, [2]); (2, [1; 3; 4]); (3, [2]); (4, [2; 5]); (5, [4; 6]); (6, [5])]%positive.
Definition ex_dihs : list dihedral :=
  [mkdihedral 2 4 [5; 6]; mkdihedral 4 5 [6]]%positive.
Definition ex_angles : list (option Z) := [Some (-60); Some 175].

(* the measured dihedral = the requested angle (the scan of attempt 1 walks chi2 through all 71
   trial angles and the final call returns it to 175) *)
Definition ex_script : script Z :=
  mkscript
    (* scores: attempt 1 on chi2: 10, then 71 worse; attempt 2 on chi1: 10, 5 (kept), 0 (conflicts remain);
       attempt 3 on chi2: 10, 0 (no conflicts left) *)
    ((10 :: repeat 11 71) ++ [10; 5; 0] ++ [10; 0])
    [[5; 6]; [6]; [6]; []]%positive
    (map (step_angle ZAr 175) (seq 1 71) ++ [175] ++ [-55; -50; -50] ++ [180])
    false.

Lemma debump_nonvacuous :
  forallb (fun d => rigid_ok (fun _ => true) ex_graph (d_b d) (d_c d) (d_mov d)) ex_dihs = true /\
  (let '(r, st) := debump_residue ZAr (script_oracle 0) ex_dihs ex_angles ex_script [6%positive] in
   r = true /\ st_err st = false /\ sc_under (st_w st) = false /\
   sc_scores (st_w st) = [] /\ sc_confs (st_w st) = [] /\ sc_meas (st_w st) = [] /\
   map fst (ops_of st) = (repeat 1 72 ++ repeat 0 3 ++ [1])%nat%list /\
   (* the fruitless attempt ends by requesting the angle it started from, the accepted one at its best angle *)
   nth_error (calls_of st) 71 = Some (1%nat, 175) /\
   nth_error (calls_of st) 74 = Some (0%nat, -50) /\
   (* its 72 rotation angles sum to 0 *)
   fold_left Z.add (map snd (firstn 72 (ops_of st))) 0 = 0 /\
   st_dih st = [Some (-50); Some 180]) /\
  (* an oracle over R meeting the hypothesis of the net-rotation theorem *)
  (forall w n req d, cong360 (fst (o_set R unit (mkoracle R unit (fun w _ => (0%R, w)) (fun w => ([], w)) (fun w _ req _ => (req, w))) w n req d)) req).
Proof.
  split; [vm_compute; reflexivity|]. split; [vm_compute; repeat split; reflexivity|].
  intros w n req d. cbn [o_set fst]. apply cong360_refl.
Qed.
