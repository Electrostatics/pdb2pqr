(* Proofs about the titration model (C06).

   Finite facts (every force field x position x group x side, every residue type x
   position x decided sites) are boolean tables closed by vm_compute and lifted to
   universally quantified statements; statements over all residue lists / pKa
   assignments / pH values are proved by induction.  Support is never a constant: it
   is [lost] computed from the generated tables.

   The model has the guard lists of apply_pka_values with finding C06-F10 repaired
   (CYM at termini for amber/tyl06/swanson, LYN at the N-terminus for amber/swanson,
   CYM/LYN/GLH for peoepb).  With the unrepaired lists decide_spec, never_dropped and
   the output-charge monotonicity fail in exactly those cells; inputs from those cells
   are the regression cases of corpus/C06. *)
From Coq Require Import String Ascii List Bool ZArith QArith PArith Lia.
From PV Require Import Lib.Lists Lib.Strings Lib.Decimal Model.ForceField Model.Topology Model.Titration.
From PV Require Model.States Proofs.States Generated.States
                Generated.FF_AMBER Generated.FF_CHARMM Generated.FF_PARSE Generated.FF_PEOEPB Generated.FF_SWANSON Generated.FF_TYL06
                Generated.StatesFF_AMBER Generated.StatesFF_CHARMM Generated.StatesFF_PARSE Generated.StatesFF_PEOEPB
                Generated.StatesFF_SWANSON Generated.StatesFF_TYL06.
From PV Require Generated.Topology Generated.Titration
                Generated.Titration_AMBER Generated.Titration_CHARMM Generated.Titration_PARSE
                Generated.Titration_PEOEPB Generated.Titration_SWANSON Generated.Titration_TYL06.
Import ListNotations.

(* atoms of a state name the force field cannot parameterise: Model.Titration.lost
   on FF_<ff>.built (= pdb2pqr's loaded map, C01 table_eq) and the templates *)
Definition lostf (ff : ffid) : string -> option (list id) :=
  match ff with
  | Amber => Titration_AMBER.lost_fn
  | Charmm => Titration_CHARMM.lost_fn
  | Parse => Titration_PARSE.lost_fn
  | Tyl06 => Titration_TYL06.lost_fn
  | Peoepb => Titration_PEOEPB.lost_fn
  | Swanson => Titration_SWANSON.lost_fn
  | OtherFF => fun _ => None
  end.

Definition formalf : list string -> option Z :=
  formal_of Generated.Titration.name_ids Generated.Titration.formal_tbl.

(* the three chain positions of the property text (a one-residue chain, PosNC,
   is named N* only and is written without OXT in every state:
   decided_state_parameterised, one_residue_chain_as_is) *)
Definition proper_positions : list position := [PosN; PosMid; PosC].

(* [lostf ff] read from the evaluated table Titration_<ff>.lost_tbl: the
   sweeps below look states up instead of recomputing their atoms *)
Definition lostt (ff : ffid) : string -> option (list id) :=
  match ff with
  | Amber => tbl_get Titration_AMBER.lost_tbl
  | Charmm => tbl_get Titration_CHARMM.lost_tbl
  | Parse => tbl_get Titration_PARSE.lost_tbl
  | Tyl06 => tbl_get Titration_TYL06.lost_tbl
  | Peoepb => tbl_get Titration_PEOEPB.lost_tbl
  | Swanson => tbl_get Titration_SWANSON.lost_tbl
  | OtherFF => fun _ => None
  end.

Lemma tbl_get_tabulate : forall (V : Type) ids (f : string -> option V) s,
  (name_id ids s = None -> f s = None) -> tbl_get (tabulate ids f) s = f s.
Proof.
  intros V ids f s. induction ids as [|[k i] ids IH]; cbn; intros H.
  - symmetry. apply H. reflexivity.
  - destruct (String.eqb s k) eqn:E; [|exact (IH H)].
    apply String.eqb_eq in E. subst k. reflexivity.
Qed.

Lemma lostf_lostt : forall ff s, lostf ff s = lostt ff s.
Proof.
  intros ff s.
  assert (Hn : forall tpl ph nf m, name_id Generated.Titration.name_ids s = None ->
               lost Generated.Titration.name_ids tpl ph nf m s = None)
    by (intros tpl ph nf m E; unfold lost; rewrite E; reflexivity).
  destruct ff; cbn [lostf lostt]; [| | | | | |reflexivity].
  - rewrite <- Titration_AMBER.lost_tbl_eq. symmetry. apply tbl_get_tabulate, Hn.
  - rewrite <- Titration_CHARMM.lost_tbl_eq. symmetry. apply tbl_get_tabulate, Hn.
  - rewrite <- Titration_PARSE.lost_tbl_eq. symmetry. apply tbl_get_tabulate, Hn.
  - rewrite <- Titration_TYL06.lost_tbl_eq. symmetry. apply tbl_get_tabulate, Hn.
  - rewrite <- Titration_PEOEPB.lost_tbl_eq. symmetry. apply tbl_get_tabulate, Hn.
  - rewrite <- Titration_SWANSON.lost_tbl_eq. symmetry. apply tbl_get_tabulate, Hn.
Qed.

Lemma in_all_groups : forall g, In g all_groups.
Proof. destruct g; cbn; tauto. Qed.

Lemma in_all_rtypes : forall t, In t all_rtypes.
Proof. destruct t; cbn; tauto. Qed.

Lemma in_all_positions_ : forall p, In p all_positions_.
Proof. destruct p; cbn; tauto. Qed.

Lemma in_all_ffs : forall f, In f all_ffs.
Proof. destruct f; cbn; tauto. Qed.

Lemma in_bools : forall b : bool, In b [true; false].
Proof. destruct b; cbn; tauto. Qed.

Lemma in_opt_bools : forall o, In o opt_bools.
Proof. destruct o as [[|]|]; cbn; tauto. Qed.

Lemma in_all_sides : forall s, In s all_sides.
Proof.
  intros [a b c]. unfold all_sides.
  apply in_flat_map. exists a. split; [apply in_opt_bools|].
  apply in_flat_map. exists b. split; [apply in_opt_bools|].
  apply in_map. apply in_opt_bools.
Qed.

Lemma in_res_cells : forall t pos s, In (t, (pos, s)) res_cells.
Proof.
  intros. unfold res_cells. apply in_prod; [apply in_all_rtypes|].
  apply in_prod; [apply in_all_positions_ | apply in_all_sides].
Qed.

Lemma six_ffs_ind : forall P : ffid -> Prop,
  P Amber -> P Charmm -> P Parse -> P Tyl06 -> P Peoepb -> P Swanson ->
  forall ff, In ff six_ffs -> P ff.
Proof.
  intros P ? ? ? ? ? ? ff H. cbn in H.
  repeat (destruct H as [<- | H]; [assumption|]). contradiction.
Qed.

Lemma safe_vs_ext : forall f g defaults targets,
  (forall s, f s = g s) -> safe_vs f defaults targets = safe_vs g defaults targets.
Proof.
  intros f g d t H. unfold safe_vs. apply forallb_ext_in. intros s _. rewrite H.
  destruct (g s) as [l|]; [|reflexivity]. apply forallb_ext_in. intros a _.
  apply existsb_ext. intros x. rewrite H. reflexivity.
Qed.

Definition outcome_eqb (a b : outcome) : bool :=
  match a, b with
  | Patch p, Patch q => patch_eqb p q
  | Keep x, Keep y => Bool.eqb x y
  | _, _ => false
  end.

Lemma patch_eqb_eq : forall p q, patch_eqb p q = true -> p = q.
Proof. destruct p, q; cbn; intros H; try reflexivity; discriminate. Qed.

Lemma outcome_eqb_eq : forall a b, outcome_eqb a b = true -> a = b.
Proof.
  destruct a as [p|x], b as [q|y]; cbn; intros H; try discriminate.
  - f_equal. apply patch_eqb_eq; assumption.
  - f_equal. apply eqb_prop; assumption.
Qed.

Lemma below_spec : forall ph v : Q, below ph v = true <-> (ph < v)%Q.
Proof.
  intros ph v. unfold below. rewrite negb_true_iff. split.
  - intros H. apply Qnot_le_lt. intros Hle. apply Qle_bool_iff in Hle. congruence.
  - intros H. destruct (Qle_bool v ph) eqn:E; [|reflexivity].
    apply Qle_bool_iff in E. exfalso. exact (Qlt_not_le _ _ H E).
Qed.

Lemma below_mono : forall ph1 ph2 v : Q, (ph1 <= ph2)%Q -> below ph2 v = true -> below ph1 v = true.
Proof.
  intros ph1 ph2 v Hle H. apply below_spec. apply below_spec in H.
  eapply Qle_lt_trans; eassumption.
Qed.

(* what the property asks of one group: if the state wanted by "protonated iff
   pH < pKa" can be parameterised at this position the group ends in it,
   otherwise the default state is kept and a warning is issued *)
Definition spec_ok (lf : string -> option (list id)) (ff : ffid) (pos : position) (g : group) (t : rtype) (b : bool) : bool :=
  let o := decide ff pos g b in
  if target_supported lf t pos g b
  then Bool.eqb (protonated_after g o) b
  else outcome_eqb o (Keep true).

Lemma spec_tbl_true :
  forallb (fun ff => forallb (fun pos => forallb (fun g => forallb (fun t => forallb (fun b =>
    implb (applicable pos g)
          (spec_ok (lostt ff) ff pos g t b))
    [true; false]) (carriers g)) all_groups) proper_positions) six_ffs = true.
Proof. vm_compute. reflexivity. Qed.

Lemma spec_ok_all : forall ff pos g t b,
  In ff six_ffs -> In pos proper_positions -> applicable pos g = true -> In t (carriers g) ->
  spec_ok (lostf ff) ff pos g t b = true.
Proof.
  intros ff pos g t b Hff Hpos Happ Ht.
  pose proof (forallb_In _ _ _ ff spec_tbl_true Hff) as H1. cbv beta in H1.
  pose proof (forallb_In _ _ _ pos H1 Hpos) as H2. cbv beta in H2.
  pose proof (forallb_In _ _ _ g H2 (in_all_groups g)) as H3. cbv beta in H3.
  pose proof (forallb_In _ _ _ t H3 Ht) as H4. cbv beta in H4.
  pose proof (forallb_In _ _ _ b H4 (in_bools b)) as H5. cbv beta in H5.
  rewrite Happ in H5. unfold spec_ok, target_supported in *.
  rewrite (safe_vs_ext _ _ _ _ (lostf_lostt ff)). exact H5.
Qed.

Theorem decide_spec : forall ff pos g t (ph pka : Q),
  In ff six_ffs -> In pos proper_positions -> applicable pos g = true -> In t (carriers g) ->
  let o := decide ff pos g (below ph pka) in
  (target_supported (lostf ff) t pos g (below ph pka) = true ->
     (protonated_after g o = true <-> (ph < pka)%Q)) /\
  (target_supported (lostf ff) t pos g (below ph pka) = false ->
     o = Keep true).
Proof.
  intros ff pos g t ph pka Hff Hpos Happ Ht o.
  pose proof (spec_ok_all ff pos g t (below ph pka) Hff Hpos Happ Ht) as H.
  unfold spec_ok in H. fold o in H.
  split; intros Hs; rewrite Hs in H.
  - apply eqb_prop in H. rewrite H. apply below_spec.
  - apply outcome_eqb_eq in H. exact H.
Qed.

(* a user force field matches none of the guard lists: titration follows the pKa
   alone, except that a neutral ARG is only ever applied for "parse" *)
Theorem decide_user_ff : forall pos g b, applicable pos g = true ->
  decide OtherFF pos g b =
  match g, wanted_patch g b with
  | _, None => Keep false
  | GARG, Some _ => Keep true
  | _, Some p => Patch p
  end.
Proof. intros pos g b H. destruct pos, g, b; cbn in *; try reflexivity; discriminate H. Qed.

Lemma safe_tbl_true :
  forallb (fun ff => forallb (fun c => let '(t, (pos, s)) := c in
     implb (existsb (fun p => Bool.eqb (is_n_term p) (is_n_term pos) && Bool.eqb (is_c_term p) (is_c_term pos)) proper_positions)
           (safe_cell (lostt ff) ff t pos s))
     res_cells) six_ffs = true.
Proof. vm_compute. reflexivity. Qed.

(* no residue is dropped because of titration: every residue type, the three
   positions, every combination of decided sites *)
Theorem never_dropped : forall ff t pos s,
  In ff six_ffs -> In pos proper_positions ->
  safe_cell (lostf ff) ff t pos s = true.
Proof.
  intros ff t pos s Hff Hpos.
  pose proof (forallb_In _ _ _ ff safe_tbl_true Hff) as H1. cbv beta in H1.
  pose proof (forallb_In _ _ _ _ H1 (in_res_cells t pos s)) as H. cbv beta iota in H.
  assert (Hp : existsb (fun p => Bool.eqb (is_n_term p) (is_n_term pos) && Bool.eqb (is_c_term p) (is_c_term pos)) proper_positions = true).
  { cbn in Hpos. repeat (destruct Hpos as [Hpos | Hpos]; [subst pos; reflexivity|]). contradiction. }
  rewrite Hp in H. unfold safe_cell in *.
  rewrite (safe_vs_ext _ _ _ _ (lostf_lostt ff)). exact H.
Qed.

Corollary never_dropped_at_ph : forall ff (r : tspec) (ph : Q),
  In ff six_ffs -> In (ts_pos r) proper_positions ->
  safe_cell (lostf ff) ff (ts_type r) (ts_pos r) (sides_at ph r) = true.
Proof. intros. apply never_dropped; assumption. Qed.

(* the model's state names are what aa.py set_state produces *)
Definition naming_tbl : bool :=
  forallb (fun row => let '(t, pos, ps, name) := row in existsb (String.eqb name) (ffname_after t pos ps))
          Generated.Titration.setstate_tbl.

Theorem naming_matches_code : naming_tbl = true /\ Generated.Titration.setstate_tbl <> [].
Proof. split; [vm_compute; reflexivity | discriminate]. Qed.

(* [hi] is at least as protonated as [lo], site by site *)
Definition ob_ge (hi lo : option bool) : bool :=
  match hi, lo with
  | None, None => true
  | Some x, Some y => implb y x
  | _, _ => false
  end.

Definition sides_ge (hi lo : sides) : bool :=
  ob_ge (s_n hi) (s_n lo) && ob_ge (s_c hi) (s_c lo) && ob_ge (s_side hi) (s_side lo).

Lemma ob_ge_at : forall (ph1 ph2 : Q) (o : option Q), (ph1 <= ph2)%Q ->
  ob_ge (option_map (below ph1) o) (option_map (below ph2) o) = true.
Proof.
  intros ph1 ph2 [v|] Hle; cbn; [|reflexivity].
  destruct (below ph2 v) eqn:E; [|reflexivity].
  rewrite (below_mono ph1 ph2 v Hle E). reflexivity.
Qed.

Lemma sides_at_mono : forall (ph1 ph2 : Q) (r : tspec), (ph1 <= ph2)%Q ->
  sides_ge (sides_at ph1 r) (sides_at ph2 r) = true.
Proof.
  intros. unfold sides_ge, sides_at. cbn [s_n s_c s_side].
  rewrite !ob_ge_at by assumption. reflexivity.
Qed.

(* [g] tabulated over [keys]: a key met again is looked up, so that under
   call-by-need [g] runs once for each distinct key *)
Definition memo {K V : Type} (eqb : K -> K -> bool) (g : K -> V) (keys : list K) : K -> V :=
  let tbl := map (fun k => (k, g k)) keys in
  fun k => match find (fun p => eqb k (fst p)) tbl with Some p => snd p | None => g k end.

Lemma memo_eq : forall (K V : Type) (eqb : K -> K -> bool) (g : K -> V) (keys : list K),
  (forall a b, eqb a b = true -> a = b) -> forall k, memo eqb g keys k = g k.
Proof.
  intros K V eqb g keys H k. unfold memo. induction keys as [|a l IH]; [reflexivity|].
  cbn [map find fst]. destruct (eqb k a) eqn:E; [|exact IH].
  apply H in E. subst a. reflexivity.
Qed.

Fixpoint patches_eqb (a b : list patchname) : bool :=
  match a, b with
  | [], [] => true
  | x :: a', y :: b' => patch_eqb x y && patches_eqb a' b'
  | _, _ => false
  end.

Lemma patches_eqb_eq : forall a b, patches_eqb a b = true -> a = b.
Proof.
  induction a as [|x a IH]; destruct b as [|y b]; cbn; intros H; try discriminate; [reflexivity|].
  apply andb_true_iff in H. destruct H as [H1 H2].
  rewrite (patch_eqb_eq _ _ H1), (IH _ H2). reflexivity.
Qed.

Definition cell_patches (t : rtype) (pos : position) : list (list patchname) :=
  flat_map (fun ff => map (residue_patches ff t pos) all_sides) all_ffs.

Lemma in_cell_patches : forall ff t pos s, In (residue_patches ff t pos s) (cell_patches t pos).
Proof.
  intros ff t pos s. apply in_flat_map. exists ff. split; [apply in_all_ffs|].
  apply in_map, in_all_sides.
Qed.

Definition mono_on (sv : list (sides * option Z)) : bool :=
  forallb (fun p1 => match snd p1 with
     | None => false
     | Some q1 =>
         forallb (fun p2 => match snd p2 with
            | None => false
            | Some q2 => implb (sides_ge (fst p1) (fst p2)) (Z.leb q2 q1)
            end) sv
     end) sv.

Lemma mono_on_spec : forall f : sides -> option Z,
  mono_on (map (fun s => (s, f s)) all_sides) = true ->
  forall s1 s2, exists q1 q2, f s1 = Some q1 /\ f s2 = Some q2 /\ (sides_ge s1 s2 = true -> (q2 <= q1)%Z).
Proof.
  intros f H s1 s2.
  assert (Hin : forall s, In (s, f s) (map (fun s => (s, f s)) all_sides))
    by (intros s; apply (in_map (fun s => (s, f s))), in_all_sides).
  pose proof (forallb_In _ _ _ _ H (Hin s1)) as H1. cbn [snd fst] in H1.
  destruct (f s1) as [q1|]; [|discriminate H1].
  pose proof (forallb_In _ _ _ _ H1 (Hin s2)) as H2. cbn [snd fst] in H2.
  destruct (f s2) as [q2|]; [|discriminate H2].
  exists q1, q2. split; [reflexivity|]. split; [reflexivity|].
  intros Hge. rewrite Hge in H2. apply Z.leb_le. exact H2.
Qed.

(* [residue_formal formalf] depends on force field and sites through the patch list only *)
Definition formal_of_patches (t : rtype) (pos : position) (ps : list patchname) : option Z :=
  match formalf (ffname_after t pos ps) with
  | None => None
  | Some q => Some (q + cterm_extra pos ps)%Z
  end.

(* table: formal charge of the assigned state is defined and does not grow when
   sites become less protonated - every force field (incl. user), all four positions *)
Lemma formal_mono_tbl_true :
  forallb (fun t => forallb (fun pos =>
     let out := memo patches_eqb (formal_of_patches t pos) (cell_patches t pos) in
     forallb (fun ff => mono_on (map (fun s => (s, out (residue_patches ff t pos s))) all_sides)) all_ffs)
     all_positions_) all_rtypes = true.
Proof. vm_compute. reflexivity. Qed.

Lemma formal_mono_spec : forall ff t pos s1 s2, exists q1 q2,
  residue_formal formalf ff t pos s1 = Some q1 /\ residue_formal formalf ff t pos s2 = Some q2 /\
  (sides_ge s1 s2 = true -> (q2 <= q1)%Z).
Proof.
  intros ff t pos. apply mono_on_spec.
  pose proof (forallb_In _ _ _ t formal_mono_tbl_true (in_all_rtypes t)) as H1. cbv beta in H1.
  pose proof (forallb_In _ _ _ pos H1 (in_all_positions_ pos)) as H2. cbv beta zeta in H2.
  pose proof (forallb_In _ _ _ ff H2 (in_all_ffs ff)) as H3. cbv beta in H3.
  rewrite (map_ext _ (fun s => (s, residue_formal formalf ff t pos s))) in H3; [exact H3|].
  intros s. rewrite (memo_eq _ _ _ _ _ patches_eqb_eq). reflexivity.
Qed.

Lemma formal_defined : forall ff t pos s, residue_formal formalf ff t pos s <> None.
Proof.
  intros ff t pos s. destruct (formal_mono_spec ff t pos s s) as [q [_ [E _]]].
  rewrite E. discriminate.
Qed.

Lemma formal_mono_cell : forall ff t pos s1 s2, sides_ge s1 s2 = true ->
  (residue_formalZ formalf ff t pos s2 <= residue_formalZ formalf ff t pos s1)%Z.
Proof.
  intros ff t pos s1 s2 Hge.
  destruct (formal_mono_spec ff t pos s1 s2) as [q1 [q2 [E1 [E2 Hle]]]].
  unfold residue_formalZ. rewrite E1, E2. exact (Hle Hge).
Qed.

(* list induction, for any per-residue charge function *)
Lemma total_mono : forall (resq : ffid -> rtype -> position -> sides -> Z) ff (ph1 ph2 : Q) (rs : list tspec),
  (forall r, In r rs ->
     (resq ff (ts_type r) (ts_pos r) (sides_at ph2 r) <= resq ff (ts_type r) (ts_pos r) (sides_at ph1 r))%Z) ->
  (total_charge resq ff ph2 rs <= total_charge resq ff ph1 rs)%Z.
Proof.
  intros resq ff ph1 ph2 rs. induction rs as [|r rs IH]; intros H.
  - cbn. lia.
  - cbn [total_charge fold_right].
    assert (H1 := H r (or_introl eq_refl)).
    assert (H2 : (total_charge resq ff ph2 rs <= total_charge resq ff ph1 rs)%Z).
    { apply IH. intros r' Hr'. apply H. right. exact Hr'. }
    unfold total_charge in H2. lia.
Qed.

(* for ALL residue lists, ALL pKa assignments, every force field and position:
   the total formal charge of the assigned states never increases as pH rises *)
Theorem charge_monotone_formal : forall ff (rs : list tspec) (ph1 ph2 : Q),
  (ph1 <= ph2)%Q ->
  (total_charge (residue_formalZ formalf) ff ph2 rs <= total_charge (residue_formalZ formalf) ff ph1 rs)%Z.
Proof.
  intros ff rs ph1 ph2 Hle. apply total_mono. intros r _.
  apply formal_mono_cell. apply sides_at_mono. exact Hle.
Qed.

(* the exact output charge: decide -> state -> C02 state row -> FF_<ff>.built *)

Definition builtf (ff : ffid) : ffmap :=
  match ff with
  | Amber => FF_AMBER.built | Charmm => FF_CHARMM.built | Parse => FF_PARSE.built
  | Tyl06 => FF_TYL06.built | Peoepb => FF_PEOEPB.built | Swanson => FF_SWANSON.built
  | OtherFF => []
  end.

(* (charge written for the residue, atoms written without parameters) of the
   state the code produces for residue type [t] at [pos] with decided sites [s] *)
Definition cell_out (ff : ffid) (t : rtype) (pos : position) (s : sides) : option (Z * list id) :=
  state_out PV.Generated.States.arows Generated.Titration.never_final (builtf ff) t pos (residue_patches ff t pos s).

Definition exactZ (ff : ffid) (t : rtype) (pos : position) (s : sides) : Z :=
  match cell_out ff t pos s with Some (q, _) => q | None => 0%Z end.

Definition no_sides : sides := mksides None None None.

(* atoms the NEUTRAL-CTERM patch adds (PATCHES.xml, generated): the only atoms a
   one-residue chain can lose in addition to those it loses untitrated *)
Definition cterm_added : list id :=
  flat_map (fun row => let '(n, _, adds, _) := row in if String.eqb n "NEUTRAL-CTERM" then adds else [])
           Generated.Titration.patch_tbl.

(* facts about one (force field, residue type, position) cell, over an arbitrary
   output function [f] of the decided sites (instantiated with [cell_out ff t pos]) *)
Definition sv_of (f : sides -> option (Z * list id)) : list (sides * option (Z * list id)) :=
  map (fun s => (s, f s)) all_sides.

Definition cell_ok (f : sides -> option (Z * list id)) (one_residue : bool) : bool :=
  let sv := sv_of f in
  mono_on (map (fun p => (fst p, option_map fst (snd p))) sv) &&
  match f no_sides with
  | None => false
  | Some (_, md) =>
      forallb (fun p => match snd p with
         | None => false
         | Some (_, mx) => forallb (fun a => mem_id a md || one_residue && mem_id a cterm_added) mx
         end) sv
  end.

Definition is_nc (pos : position) : bool := match pos with PosNC => true | _ => false end.

(* the check is run on [f]; what it says is read off any pointwise equal [g] *)
Lemma cell_ok_spec : forall f g one, (forall s, f s = g s) -> cell_ok f one = true ->
  (forall s1 s2, exists q1 m1 q2 m2, g s1 = Some (q1, m1) /\ g s2 = Some (q2, m2) /\
                                      (sides_ge s1 s2 = true -> (q2 <= q1)%Z)) /\
  (forall s, exists q0 md q mx, g no_sides = Some (q0, md) /\ g s = Some (q, mx) /\
             forall a, In a mx -> mem_id a md = true \/ (one = true /\ mem_id a cterm_added = true)).
Proof.
  intros f g one Hfg H. unfold cell_ok in H. cbv zeta in H.
  apply andb_true_iff in H. destruct H as [Ha Hb].
  split.
  - intros s1 s2. rewrite <- !Hfg. unfold sv_of in Ha. rewrite map_map in Ha. cbn [fst snd] in Ha.
    destruct (mono_on_spec _ Ha s1 s2) as [q1 [q2 [E1 [E2 Hle]]]].
    destruct (f s1) as [[q1' m1]|]; [|discriminate E1]. destruct (f s2) as [[q2' m2]|]; [|discriminate E2].
    cbn in E1, E2. inversion E1; inversion E2; subst. eauto 8.
  - intros s. rewrite <- !Hfg. destruct (f no_sides) as [[q0 md]|]; [|discriminate Hb].
    assert (Hin : In (s, f s) (sv_of f)) by (apply (in_map (fun s => (s, f s))), in_all_sides).
    pose proof (forallb_In _ _ _ _ Hb Hin) as H1. cbv beta in H1. cbn [snd] in H1.
    destruct (f s) as [[q mx]|]; [|discriminate H1].
    exists q0, md, q, mx. split; [reflexivity|]. split; [reflexivity|].
    intros a Ha'. pose proof (forallb_In _ _ _ a H1 Ha') as H2. cbv beta in H2.
    apply orb_true_iff in H2. destruct H2 as [H2|H2]; [left; exact H2|].
    right. apply andb_true_iff in H2. exact H2.
Qed.

(* [rows_for] selects rows of the residue's own class only, so the sweeps over
   the state table run on its split by class, made once *)
Definition of_class (t : rtype) (r : PV.Model.States.arow) : bool :=
  PV.Model.States.base_eqb (PV.Model.States.base_of_class (PV.Model.States.ar_cls r))
                           (PV.Model.States.base_of_class (cls_of t)).

Lemma rows_for_class : forall rows t pos ps,
  rows_for (filter (of_class t) rows) t pos ps = rows_for rows t pos ps.
Proof.
  intros. unfold rows_for. apply filter_filter_sub. intros r H.
  apply andb_true_iff in H as [H _]. apply andb_true_iff in H as [H _]. exact H.
Qed.

Definition class_rows : list (rtype * list PV.Model.States.arow) :=
  Eval vm_compute in map (fun t => (t, filter (of_class t) PV.Generated.States.arows)) all_rtypes.

Lemma class_rows_eq :
  map (fun t => (t, filter (of_class t) PV.Generated.States.arows)) all_rtypes = class_rows.
Proof. vm_compute. reflexivity. Qed.

Lemma forallb_map_pair : forall (A B : Type) (g : A -> B) (chk : A -> B -> bool) (l : list A),
  forallb (fun p => chk (fst p) (snd p)) (map (fun a => (a, g a)) l) = true ->
  forall a, In a l -> chk a (g a) = true.
Proof.
  intros A B g chk l H a Ha.
  exact (forallb_In _ _ _ _ H (in_map (fun a => (a, g a)) l a Ha)).
Qed.

Lemma class_rows_sweep : forall chk : rtype -> list PV.Model.States.arow -> bool,
  forallb (fun p => chk (fst p) (snd p)) class_rows = true ->
  forall t, chk t (filter (of_class t) PV.Generated.States.arows) = true.
Proof.
  intros chk H t. rewrite <- class_rows_eq in H.
  exact (forallb_map_pair _ _ (fun t => filter (of_class t) PV.Generated.States.arows) chk all_rtypes H t (in_all_rtypes t)).
Qed.

(* [cell_out] over a given part of the state table and a given map; the 27 site
   combinations of a cell give at most 12 distinct patch lists *)
Definition cell_out_on (rows : list PV.Model.States.arow) (m : ffmap)
                       (ff : ffid) (t : rtype) (pos : position) : sides -> option (Z * list id) :=
  let out := memo patches_eqb (state_out rows Generated.Titration.never_final m t pos)
                  (map (residue_patches ff t pos) all_sides) in
  fun s => out (residue_patches ff t pos s).

Lemma cell_out_class : forall ff t pos s,
  cell_out_on (filter (of_class t) PV.Generated.States.arows) (builtf ff) ff t pos s = cell_out ff t pos s.
Proof.
  intros. unfold cell_out_on. cbv zeta. rewrite (memo_eq _ _ _ _ _ patches_eqb_eq).
  unfold cell_out, state_out, state_vals. rewrite rows_for_class. reflexivity.
Qed.

(* over ALL FOUR positions; a one-residue chain adds no unparameterised atom but what
   NEUTRAL-CTERM adds *)
Definition out_ok (m : ffmap) (ff : ffid) : bool :=
  forallb (fun p => forallb (fun pos => cell_ok (cell_out_on (snd p) m ff (fst p) pos) (is_nc pos))
                            all_positions_) class_rows.

Lemma out_tbl_true : forall ff, In ff six_ffs -> out_ok (builtf ff) ff = true.
Proof.
  apply six_ffs_ind; cbn [builtf].
  - rewrite FF_AMBER.built_eq. vm_compute. reflexivity.
  - rewrite FF_CHARMM.built_eq. vm_compute. reflexivity.
  - rewrite FF_PARSE.built_eq. vm_compute. reflexivity.
  - rewrite FF_TYL06.built_eq. vm_compute. reflexivity.
  - rewrite FF_PEOEPB.built_eq. vm_compute. reflexivity.
  - rewrite FF_SWANSON.built_eq. vm_compute. reflexivity.
Qed.

Lemma out_cell_spec : forall ff t pos, In ff six_ffs ->
  (forall s1 s2, exists q1 m1 q2 m2, cell_out ff t pos s1 = Some (q1, m1) /\ cell_out ff t pos s2 = Some (q2, m2) /\
                                      (sides_ge s1 s2 = true -> (q2 <= q1)%Z)) /\
  (forall s, exists q0 md q mx, cell_out ff t pos no_sides = Some (q0, md) /\ cell_out ff t pos s = Some (q, mx) /\
             forall a, In a mx -> mem_id a md = true \/ (is_nc pos = true /\ mem_id a cterm_added = true)).
Proof.
  intros ff t pos Hff. eapply cell_ok_spec; [apply cell_out_class|].
  pose proof (class_rows_sweep (fun t rows => forallb (fun pos => cell_ok (cell_out_on rows (builtf ff) ff t pos) (is_nc pos))
                                                      all_positions_) (out_tbl_true ff Hff) t) as H.
  exact (forallb_In _ _ _ pos H (in_all_positions_ pos)).
Qed.

Lemma out_defined : forall ff t pos s, In ff six_ffs -> cell_out ff t pos s <> None.
Proof.
  intros ff t pos s Hff.
  destruct (proj1 (out_cell_spec ff t pos Hff) s s) as [q1 [m1 [_ [_ [E _]]]]].
  rewrite E. discriminate.
Qed.

Lemma exact_mono_cell : forall ff t pos s1 s2, In ff six_ffs -> sides_ge s1 s2 = true ->
  (exactZ ff t pos s2 <= exactZ ff t pos s1)%Z.
Proof.
  intros ff t pos s1 s2 Hff Hge.
  destruct (proj1 (out_cell_spec ff t pos Hff) s1 s2) as [q1 [m1 [q2 [m2 [E1 [E2 Hle]]]]]].
  unfold exactZ. rewrite E1, E2. apply Hle. exact Hge.
Qed.

(* FULL output statement: ALL residue lists (all four positions, one-residue
   chains included), ALL pKa assignments, pH1 <= pH2, six force fields: the sum of
   the exact force-field charges written for the states the code produces never
   increases *)
Theorem charge_monotone_output : forall ff (rs : list tspec) (ph1 ph2 : Q),
  In ff six_ffs -> (ph1 <= ph2)%Q ->
  (total_charge exactZ ff ph2 rs <= total_charge exactZ ff ph1 rs)%Z.
Proof.
  intros ff rs ph1 ph2 Hff Hle. apply total_mono. intros r _.
  apply exact_mono_cell; [exact Hff|]. apply sides_at_mono. exact Hle.
Qed.

Lemma mem_id_In : forall a l, mem_id a l = true -> In a l.
Proof.
  intros a l. exact (proj1 (existsb_eqb_In Pos.eqb Pos.eqb_eq a l)).
Qed.

(* titration never makes an atom unparameterised: every atom the decided state
   is written without is one the untitrated residue is written without too, or -
   in a one-residue chain, whose N* name cannot carry a neutral C-terminus - one
   of the atoms NEUTRAL-CTERM adds *)
Theorem decided_state_parameterised : forall ff t pos s, In ff six_ffs ->
  exists q0 md q mx,
    cell_out ff t pos no_sides = Some (q0, md) /\ cell_out ff t pos s = Some (q, mx) /\
    forall a, In a mx -> In a md \/ (pos = PosNC /\ In a cterm_added).
Proof.
  intros ff t pos s Hff.
  destruct (proj2 (out_cell_spec ff t pos Hff) s) as [q0 [md [q [mx [E0 [E Hin]]]]]].
  exists q0, md, q, mx. split; [exact E0|]. split; [exact E|].
  intros a Ha. destruct (Hin a Ha) as [H|[Hp Hc]].
  - left. apply mem_id_In. exact H.
  - right. split; [destruct pos; try discriminate Hp; reflexivity | apply mem_id_In; exact Hc].
Qed.

(* at the three ordinary positions: a fully parameterised untitrated residue
   stays fully parameterised in every state titration can give it *)
Corollary decided_state_fully_parameterised : forall ff t pos s q0, In ff six_ffs -> In pos proper_positions ->
  cell_out ff t pos no_sides = Some (q0, []) ->
  exists q, cell_out ff t pos s = Some (q, []).
Proof.
  intros ff t pos s q0 Hff Hpos H0.
  destruct (decided_state_parameterised ff t pos s Hff) as [q0' [md [q [mx [E0 [E Hin]]]]]].
  rewrite H0 in E0. inversion E0; subst. exists q. rewrite E. f_equal. f_equal.
  destruct mx as [|a mx']; [reflexivity|]. exfalso.
  destruct (Hin a (or_introl eq_refl)) as [[]|[Hp _]]. subst pos. cbn in Hpos. intuition discriminate.
Qed.

(* composition with C02: a state row alternative that is written completely
   carries EXACTLY the formal charge of the state (C02 state_exact), except the
   states C02 lists as findings (PARSE: NEUTRAL-CPRO) *)
Lemma assigned_resolve : forall m res atoms q, assigned m res atoms = (q, []) ->
  PV.Model.States.resolve m res atoms = Some q.
Proof.
  intros m res atoms. induction atoms as [|a rest IH]; intros q H.
  - cbn in H. inversion H. reflexivity.
  - cbn [assigned] in H. destruct (assigned m res rest) as [q' miss] eqn:E.
    cbn [PV.Model.States.resolve].
    destruct (lookup m res a) as [e|]; [|inversion H].
    inversion H; subst. rewrite (IH q' eq_refl). reflexivity.
Qed.

Lemma real_alts_incl : forall nf r alt, In alt (real_alts nf r) -> In alt (PV.Model.States.ar_alts r).
Proof.
  intros nf r alt H. unfold real_alts in H.
  destruct (filter _ (PV.Model.States.ar_alts r)) as [|x l] eqn:E; [exact H|].
  rewrite <- E in H. apply filter_In in H. exact (proj1 H).
Qed.

Definition exc_keys (ff : ffid) : list nat :=
  match ff with
  | Amber => StatesFF_AMBER.known_exceptions | Charmm => StatesFF_CHARMM.known_exceptions
  | Parse => StatesFF_PARSE.known_exceptions | Tyl06 => StatesFF_TYL06.known_exceptions
  | Peoepb => StatesFF_PEOEPB.known_exceptions | Swanson => StatesFF_SWANSON.known_exceptions
  | OtherFF => []
  end.

(* C02's exactness check, Generated/StatesFF_<ff>.state_exact *)
Lemma state_exact_ff : forall ff, In ff six_ffs ->
  PV.Model.States.check_arows 0 (builtf ff) (exc_keys ff) PV.Generated.States.arows = true.
Proof.
  apply six_ffs_ind; cbn [builtf exc_keys].
  - rewrite FF_AMBER.built_eq, <- StatesFF_AMBER.built_eq. exact StatesFF_AMBER.state_exact.
  - rewrite FF_CHARMM.built_eq, <- StatesFF_CHARMM.built_eq. exact StatesFF_CHARMM.state_exact.
  - rewrite FF_PARSE.built_eq, <- StatesFF_PARSE.built_eq. exact StatesFF_PARSE.state_exact.
  - rewrite FF_TYL06.built_eq, <- StatesFF_TYL06.built_eq. exact StatesFF_TYL06.state_exact.
  - rewrite FF_PEOEPB.built_eq, <- StatesFF_PEOEPB.built_eq. exact StatesFF_PEOEPB.state_exact.
  - rewrite FF_SWANSON.built_eq, <- StatesFF_SWANSON.built_eq. exact StatesFF_SWANSON.state_exact.
Qed.

Lemma output_is_formal_gen : forall (rows : list PV.Model.States.arow) nf m exc,
  PV.Model.States.check_arows 0 m exc rows = true ->
  forall t pos ps r alt q,
  In r (rows_for rows t pos ps) -> In alt (real_alts nf r) ->
  ~ In (PV.Model.States.ar_key r) exc ->
  assigned m (PV.Model.States.ar_ff r) alt = (q, []) ->
  q = (PV.Model.States.ar_formal r * PV.Model.States.SCALE)%Z.
Proof.
  intros rows nf m exc Hchk t pos ps r alt q Hr Halt Hexc Hq.
  unfold rows_for in Hr. apply filter_In in Hr. destruct Hr as [Hr _].
  pose proof (PV.Proofs.States.state_charge_sound 0 m exc rows Hchk r Hr Hexc
                alt q (real_alts_incl _ _ _ Halt) (assigned_resolve _ _ _ _ Hq)) as H.
  lia.
Qed.

Theorem output_is_formal : forall ff t pos ps r alt q, In ff six_ffs ->
  In r (rows_for PV.Generated.States.arows t pos ps) ->
  In alt (real_alts Generated.Titration.never_final r) ->
  ~ In (PV.Model.States.ar_key r) (exc_keys ff) ->
  assigned (builtf ff) (PV.Model.States.ar_ff r) alt = (q, []) ->
  q = (PV.Model.States.ar_formal r * PV.Model.States.SCALE)%Z.
Proof.
  intros ff t pos ps r alt q Hff.
  exact (output_is_formal_gen PV.Generated.States.arows Generated.Titration.never_final (builtf ff) (exc_keys ff)
           (state_exact_ff ff Hff) t pos ps r alt q).
Qed.

(* the C02 rows selected for a cell carry the very state name(s) this model's
   naming (tied to aa.py by naming_matches_code) gives the cell *)
Definition names_match (rows : list PV.Model.States.arow) (t : rtype) (pos : position) (ps : list patchname) : bool :=
  forallb (fun r => existsb (fun n => match name_id Generated.Titration.name_ids n with
                                      | Some i => Pos.eqb i (PV.Model.States.ar_ff r)
                                      | None => false
                                      end) (ffname_after t pos ps))
          (rows_for rows t pos ps).

Lemma rows_match_names_tbl :
  forallb (fun p => forallb (fun pos =>
     forallb (memo patches_eqb (names_match (snd p) (fst p) pos) (cell_patches (fst p) pos))
             (cell_patches (fst p) pos)) all_positions_) class_rows = true.
Proof. vm_compute. reflexivity. Qed.

(* stated over any table: with the generated one, a conversion between the two
   sides would walk the stuck [filter] over all its rows, in both branches of every test *)
Lemma names_match_spec : forall rows t pos ps r,
  names_match rows t pos ps = true -> In r (rows_for rows t pos ps) ->
  exists n, In n (ffname_after t pos ps) /\
            name_id Generated.Titration.name_ids n = Some (PV.Model.States.ar_ff r).
Proof.
  intros rows t pos ps r H Hr. unfold names_match in H.
  pose proof (forallb_In _ _ _ r H Hr) as H4. cbv beta in H4.
  apply existsb_exists in H4. destruct H4 as [n [Hn Hi]]. exists n. split; [exact Hn|].
  destruct (name_id Generated.Titration.name_ids n) as [i|]; [|discriminate Hi].
  apply Pos.eqb_eq in Hi. subst i. reflexivity.
Qed.

Lemma names_match_class : forall rows t pos ps,
  names_match (filter (of_class t) rows) t pos ps = names_match rows t pos ps.
Proof. intros. unfold names_match. rewrite rows_for_class. reflexivity. Qed.

Theorem rows_match_names : forall ff t pos s r,
  In r (rows_for PV.Generated.States.arows t pos (residue_patches ff t pos s)) ->
  exists n, In n (residue_names ff t pos s) /\
            name_id Generated.Titration.name_ids n = Some (PV.Model.States.ar_ff r).
Proof.
  intros ff t pos s r. apply names_match_spec. rewrite <- names_match_class.
  pose proof (class_rows_sweep (fun t rows => forallb (fun pos =>
                 forallb (memo patches_eqb (names_match rows t pos) (cell_patches t pos)) (cell_patches t pos))
                 all_positions_) rows_match_names_tbl t) as H1.
  pose proof (forallb_In _ _ _ pos H1 (in_all_positions_ pos)) as H2.
  pose proof (forallb_In _ _ _ _ H2 (in_cell_patches ff t pos s)) as H3.
  rewrite (memo_eq _ _ _ _ _ patches_eqb_eq) in H3. exact H3.
Qed.

(* what the code does with a one-residue chain, as it is: the residue is named
   N* only, so OXT (and HO under NEUTRAL-CTERM) are written without parameters
   and the chain carries the charge of its N-terminal state alone *)
Example one_residue_chain_as_is :
  (exists oxt, cell_out Amber ALA PosNC no_sides = Some (100000000%Z, [oxt])) /\
  (exists ho oxt, cell_out Parse ALA PosNC (mksides None (Some true) None) = Some (100000000%Z, [ho; oxt])) /\
  cell_out Parse ALA PosNC (mksides (Some false) None None) <> cell_out Parse ALA PosNC no_sides /\
  cell_out Amber CYS PosMid (mksides None None (Some false)) = Some ((-100000000)%Z, []) /\
  cell_out Amber ALA PosC no_sides = Some ((-100000000)%Z, []).
Proof.
  split; [eexists; vm_compute; reflexivity|]. split; [do 2 eexists; vm_compute; reflexivity|].
  split; [vm_compute; discriminate|]. split; vm_compute; reflexivity.
Qed.

(* regression example: the input of finding C06-F10 for the output charge (C-terminal CYS
   in amber, pH 7 -> 10; the unrepaired apply_pka_values made the total charge rise) *)
Example charge_monotone_output_former_witness :
  (total_charge exactZ Amber (10 # 1)%Q [mktspec CYS PosC None None (Some (8 # 1)%Q)]
   <= total_charge exactZ Amber (7 # 1)%Q [mktspec CYS PosC None None (Some (8 # 1)%Q)])%Z /\
  decide Amber PosC GCYS false = Keep true.
Proof. vm_compute. split; [discriminate | reflexivity]. Qed.

(* decisions are per residue only when keys are unique *)

Lemma sget_sdel_other : forall d k k', k <> k' -> sget (sdel d k) k' = sget d k'.
Proof.
  induction d as [|[k0 v0] d IH]; intros k k' Hne; [reflexivity|].
  cbn [sdel sget]. destruct (String.eqb k k0) eqn:E.
  - apply String.eqb_eq in E. subst k0.
    destruct (String.eqb k' k) eqn:E'; [|reflexivity].
    apply String.eqb_eq in E'. congruence.
  - cbn [sget]. destruct (String.eqb k' k0); [reflexivity|]. apply IH. exact Hne.
Qed.

Lemma site_result_after_other : forall ff ph d it it',
  i_key it <> i_key it' -> site_result ff ph (site_dict d it) it' = site_result ff ph d it'.
Proof.
  intros ff ph d it it' Hne. unfold site_result, site_dict.
  destruct (sget d (i_key it)); [|reflexivity].
  rewrite sget_sdel_other by exact Hne. reflexivity.
Qed.

(* with pairwise distinct keys every site sees the value the ORIGINAL dict holds
   for its key: the decision for a residue does not depend on the other residues *)
Theorem run_items_independent : forall ff ph its d,
  NoDup (map i_key its) ->
  fst (run_items ff ph d its) = map (site_result ff ph d) its.
Proof.
  intros ff ph its. induction its as [|it rest IH]; intros d Hnd; [reflexivity|].
  cbn [run_items map]. inversion Hnd as [|k ks Hnotin Hnd']; subst.
  specialize (IH (site_dict d it) Hnd').
  destruct (run_items ff ph (site_dict d it) rest) as [rs d'] eqn:E.
  cbn [fst] in *. rewrite IH. f_equal.
  apply map_ext_in. intros it' Hin.
  apply site_result_after_other. intros Heq. apply Hnotin. rewrite Heq. apply in_map. exact Hin.
Qed.

Theorem apply_pka_independent : forall ff ph d rs,
  NoDup (map i_key (flat_map items_of rs)) ->
  fst (apply_pka_values ff ph d rs) = map (site_result ff ph d) (flat_map items_of rs).
Proof. intros. unfold apply_pka_values. apply run_items_independent. assumption. Qed.

Local Open Scope string_scope.

(* two residues with the same name, number and chain id (the key has no insertion
   code) share the key: the first consumes it, the second is not titrated although
   the table has its pKa *)
Theorem key_collision_refuted :
  exists ff ph d (r1 r2 : residue),
    key_side r1 = key_side r2 /\
    fst (apply_pka_values ff ph d [r1; r2]) <> map (site_result ff ph d) (flat_map items_of [r1; r2]).
Proof.
  exists Parse, (7 # 1)%Q, [("ASP 10 A", (9 # 1)%Q)],
         (mkres true "ASP" 10 "A" false false), (mkres true "ASP" 10 "A" false false).
  split; [reflexivity|]. vm_compute. discriminate.
Qed.

(* for ALL integers (negative, zero, any number of digits) and all residue names /
   chain ids without outer whitespace: main.py's unstripped dict key equals the
   stripped key apply_pka_values computes for that residue *)
Theorem row_key_is_lookup_key : forall (name chain label : string) (num : Z) (pka : Q) (am nt ct : bool),
  lstrip name = name -> name <> EmptyString -> rstrip chain = chain -> chain <> EmptyString ->
  row_key (mkpkarow name num chain label pka) = key_side (mkres am name num chain nt ct).
Proof.
  intros name chain label num pka am nt ct Hn Hne Hc Hce.
  unfold row_key, key_side, strip. cbn [row_resname row_resnum row_chain r_name r_seq r_chain].
  assert (Hl : lstrip (name ++ " " ++ Z_to_string num ++ " " ++ chain) = (name ++ " " ++ Z_to_string num ++ " " ++ chain)%string).
  { destruct name as [|c n]; [contradiction|]. cbn [append lstrip] in *.
    destruct (is_ws c) eqn:E; [|reflexivity].
    (* lstrip (String c n) = String c n with is_ws c = true is impossible: the result is shorter *)
    exfalso. clear - Hn E.
    assert (Hlen : forall s, (String.length (lstrip s) <= String.length s)%nat).
    { induction s as [|x s IHs]; cbn; [lia|]. destruct (is_ws x); cbn; lia. }
    pose proof (Hlen n) as H. rewrite Hn in H. cbn in H. lia. }
  rewrite Hl.
  replace (name ++ " " ++ Z_to_string num ++ " " ++ chain)%string
     with ((name ++ " " ++ Z_to_string num ++ " ") ++ chain)%string
     by (rewrite !app_assoc_s; reflexivity).
  symmetry. apply rstrip_app_gen; [assumption|]. destruct chain; [contradiction | reflexivity].
Qed.

(* hence a side-chain row of a residue is found at that residue's site, whatever its number *)
Theorem row_reaches_site : forall (name chain label : string) (num : Z) (pka : Q) (am nt ct : bool),
  lstrip name = name -> name <> EmptyString -> rstrip chain = chain -> chain <> EmptyString ->
  prefix_of name label = true ->
  sget (dict_of_rows [mkpkarow name num chain label pka]) (key_side (mkres am name num chain nt ct)) = Some pka.
Proof.
  intros name chain label num pka am nt ct Hn Hne Hc Hce Hp.
  rewrite <- (row_key_is_lookup_key name chain label num pka am nt ct Hn Hne Hc Hce).
  unfold dict_of_rows. cbn [fold_left row_resname row_label]. rewrite Hp. cbn [sset sget].
  rewrite String.eqb_refl. reflexivity.
Qed.

Example row_reaches_site_nonvacuous :
  sget (dict_of_rows [mkpkarow "ASP" 1005 "A" (propka_label "ASP" 1005 "A") (39 # 10)%Q])
       (key_side (mkres true "ASP" 1005 "A" false false)) = Some (39 # 10)%Q /\
  propka_label "ASP" 1005 "A" = "ASP1005 A" /\
  key_side (mkres true "ASP" (-12) "A" false false) = "ASP -12 A".
Proof. vm_compute. repeat split; reflexivity. Qed.

Theorem requested_ph_decides : forall ff (ph : Q) rows rs,
  run_titration ff ph rows rs = pipeline ff ph rows rs.
Proof. reflexivity. Qed.

(* with decide_spec: the side of the comparison is taken at the requested value itself,
   so two requests on different sides of a pKa, however close, are decided differently *)
Example requested_ph_full_resolution :
  let row := mkpkarow "ASP" 2 "A" (propka_label "ASP" 2 "A") (38 # 10)%Q in
  let r := mkres true "ASP" 2 "A" false false in
  fst (run_titration Parse (3796 # 1000)%Q [row] [r]) = [Decided GASP (Patch P_ASH)] /\
  fst (run_titration Parse (3799999 # 1000000)%Q [row] [r]) = [Decided GASP (Patch P_ASH)] /\
  fst (run_titration Parse (38 # 10)%Q [row] [r]) = [Decided GASP (Keep false)].
Proof. vm_compute. repeat split; reflexivity. Qed.

(* main.py: terminus rows never reach apply_pka_values *)

Lemma dict_of_rows_acc : forall rows acc,
  Forall (fun r => prefix_of (row_resname r) (row_label r) = false) rows ->
  fold_left (fun d r => if prefix_of (row_resname r) (row_label r) then sset d (row_key r) (row_pka r) else d)
            rows acc = acc.
Proof.
  induction rows as [|r rows IH]; intros acc H; [reflexivity|].
  inversion H as [|r' rows' Hr Hrest]; subst. cbn [fold_left]. rewrite Hr. apply IH. exact Hrest.
Qed.

(* rows whose label does not start with the residue name (PROPKA labels the
   termini "N+" / "C-") are filtered out before titration *)
Theorem rows_filtered : forall rows,
  Forall (fun r => prefix_of (row_resname r) (row_label r) = false) rows ->
  dict_of_rows rows = [].
Proof. intros. unfold dict_of_rows. apply dict_of_rows_acc. assumption. Qed.

(* "a terminus is titrated from its pKa row" is refuted for the pipeline: PARSE
   supports the neutral N-terminus and decide would apply it, but the N+ row
   is dropped and the N+ site finds no key (finding F11) *)
Theorem pipeline_terminus_refuted :
  exists (t : rtype) (ph pka : Q) (r : residue) (row : pkarow),
    row_label row = propka_label "N+" (r_seq r) (r_chain r) /\
    r_nterm r = true /\ r_name r = rtype_name t /\
    target_supported (lostf Parse) t PosN GNplus (below ph pka) = true /\
    decide Parse PosN GNplus (below ph pka) = Patch P_NEUTRAL_NTERM /\
    fst (pipeline Parse ph [row] [r]) = [Absent; Absent].
Proof.
  exists ALA, (12 # 1)%Q, (8 # 1)%Q, (mkres true "ALA" 1 "A" true false),
         (mkpkarow "ALA" 1 "A" (propka_label "N+" 1 "A") (8 # 1)%Q).
  repeat split; vm_compute; reflexivity.
Qed.

(* a side-chain row of the same residue does reach its site *)
Example pipeline_side_row_reaches :
  fst (pipeline Parse (12 # 1)%Q [mkpkarow "LYS" 7 "A" (propka_label "LYS" 7 "A") (10 # 1)%Q]
                [mkres true "LYS" 7 "A" false false]) = [Decided GLYS (Patch P_LYN)].
Proof. vm_compute. reflexivity. Qed.

Example nonvacuous :
  (* a guarded-in cell where a patch is applied and supported, one where the
     guard keeps the default with a warning, and residue charges that really move *)
  target_supported (lostf Parse) CYS PosN GCYS false = true /\ decide Parse PosN GCYS false = Patch P_CYM /\
  target_supported (lostf Charmm) CYS PosMid GCYS false = false /\ decide Charmm PosMid GCYS false = Keep true /\
  residue_formal formalf Parse CYS PosN (mksides None None (Some false)) = Some 0%Z /\
  residue_formal formalf Parse CYS PosN (mksides None None (Some true)) = Some 1%Z /\
  safe_cell (lostf Parse) Parse CYS PosN (mksides None None (Some false)) = true /\
  (* the repaired guards: kept at the terminus, applied in the middle of the chain *)
  decide Amber PosN GCYS false = Keep true /\ decide Amber PosMid GCYS false = Patch P_CYM.
Proof. vm_compute. repeat split; reflexivity. Qed.
