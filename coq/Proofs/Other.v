(* C07: lines that change nothing.  Records of the OTHER classes (HET, SSBOND,
   CONECT, CRYST1, SEQRES, ... and unknown names), whether their parsers accept
   the line or fail on it, never change which coordinate / TER / END / MODEL
   records are read: errlist suppression is an exact match on the record name,
   and errlist never holds one of the five names Biomolecule reads.  Blank lines
   and lines with an unknown record name are such lines. *)
From Coq Require Import String Ascii List Arith NArith ZArith Bool Lia Permutation.
From PV Require Import Lib.Strings Lib.Decimal Model.PdbRead Model.Group Model.PdbSpec
  Proofs.PdbRead Proofs.Group Proofs.Ingest.
Import ListNotations.
Local Open Scope string_scope.
Local Open Scope list_scope.

Section Other.
  Variable fok : string -> bool.
  Variable tab : deftab.

  (* errlists that agree on the five names *)
  Definition agree5 (e1 e2 : list string) : Prop :=
    forall n, mem_str n five_names = true -> mem_str n e1 = mem_str n e2.

  Lemma agree5_refl e : agree5 e e. Proof. intros n _. reflexivity. Qed.

  Lemma agree5_add e n : mem_str n five_names = false -> agree5 (e ++ [n]) e.
  Proof.
    intros Hn m Hm. rewrite mem_str_app. simpl.
    destruct (m =? n) eqn:E; [apply String.eqb_eq in E; subst m; rewrite Hm in Hn; discriminate|].
    rewrite !orb_false_r. reflexivity.
  Qed.

  Lemma agree5_trans a b c : agree5 a b -> agree5 b c -> agree5 a c.
  Proof. intros H1 H2 n Hn. rewrite (H1 n Hn). apply H2; exact Hn. Qed.

  Lemma agree5_sym a b : agree5 a b -> agree5 b a.
  Proof. intros H n Hn. symmetry. apply H; exact Hn. Qed.

  Lemma line_outcomeG_never s : line_outcomeG fok (fun _ => false) s = line_outcome fok s.
  Proof.
    unfold line_outcomeG. cbv zeta.
    destruct (mem_str (rec_name s) five_names || negb (mem_str (rec_name s) known_records)) eqn:E;
      [reflexivity|].
    apply orb_false_iff in E as [E5 Ek]. apply negb_false_iff in Ek.
    destruct (line_outcome_view fok s) as [het Ec|_ En|_ En|_ En|_ _].
    - rewrite (coord_het_name s het Ec) in E5. destruct het; discriminate.
    - rewrite En in E5. discriminate.
    - rewrite En in E5. discriminate.
    - rewrite En in E5. discriminate.
    - rewrite Ek. reflexivity.
  Qed.

  Lemma read_loopG_never lines : forall acc e,
    read_loopG fok (fun _ => false) lines acc e = read_loop fok lines acc e.
  Proof.
    induction lines as [|x rest IH]; intros acc e; [reflexivity|].
    cbn [read_loopG read_loop]. rewrite line_outcomeG_never.
    destruct (is_empty x); [reflexivity|]. destruct (is_empty (strip x)); [apply IH|].
    destruct (mem_str (rec_name (strip x)) e); [apply IH|].
    destruct (line_outcome fok (strip x)); try apply IH; reflexivity.
  Qed.

  Section Oracle.
    Variable oerr : string -> bool.

    Lemma outcomeG_five s :
      mem_str (rec_name s) five_names = true -> line_outcomeG fok oerr s = line_outcome fok s.
    Proof. intros H. unfold line_outcomeG. cbv zeta. rewrite H. reflexivity. Qed.

    (* a line whose name is not one of the five yields no record and never raises *)
    Lemma outcomeG_nonfive s :
      mem_str (rec_name s) five_names = false ->
      line_outcomeG fok oerr s = OSkip \/ line_outcomeG fok oerr s = OErr.
    Proof.
      intros H. unfold line_outcomeG. cbv zeta. rewrite H. cbn [orb].
      destruct (negb (mem_str (rec_name s) known_records)); [|destruct (oerr s); auto].
      pose proof (outcome_five fok s) as H5. destruct (line_outcome fok s); auto; congruence.
    Qed.

    (* one step on such a line: the loop goes on with an errlist that agrees on the five *)
    Lemma stepG_nonfive x rest acc e :
      is_empty x = false -> mem_str (rec_name (strip x)) five_names = false ->
      exists e', read_loopG fok oerr (x :: rest) acc e = read_loopG fok oerr rest acc e' /\ agree5 e' e.
    Proof.
      intros Hx H. cbn [read_loopG]. rewrite Hx.
      destruct (is_empty (strip x)); [exists e; split; [reflexivity | apply agree5_refl]|].
      destruct (mem_str (rec_name (strip x)) e); [exists e; split; [reflexivity | apply agree5_refl]|].
      destruct (outcomeG_nonfive _ H) as [E|E]; rewrite E.
      - exists e; split; [reflexivity | apply agree5_refl].
      - eexists; split; [reflexivity | apply agree5_add; exact H].
    Qed.
  End Oracle.

  Lemma loop_eq o1 o2 lines : forall acc e1 e2,
    agree5 e1 e2 ->
    option_map fst (read_loopG fok o1 lines acc e1) = option_map fst (read_loopG fok o2 lines acc e2).
  Proof.
    induction lines as [|x rest IH]; intros acc e1 e2 He; [reflexivity|].
    destruct (is_empty x) eqn:Hx; [cbn [read_loopG]; rewrite Hx; reflexivity|].
    destruct (mem_str (rec_name (strip x)) five_names) eqn:H5.
    - cbn [read_loopG]. rewrite Hx.
      destruct (is_empty (strip x)); [apply IH; exact He|].
      rewrite (He _ H5). destruct (mem_str (rec_name (strip x)) e2); [apply IH; exact He|].
      rewrite !(outcomeG_five _ _ H5).
      destruct (line_outcome fok (strip x)); try (apply IH; exact He); [|reflexivity].
      apply IH. intros n Hn. rewrite !mem_str_app, (He n Hn). reflexivity.
    - destruct (stepG_nonfive o1 x rest acc e1 Hx H5) as [e1' [E1 A1]].
      destruct (stepG_nonfive o2 x rest acc e2 Hx H5) as [e2' [E2 A2]].
      rewrite E1, E2. apply IH.
      eapply agree5_trans; [exact A1|]. eapply agree5_trans; [exact He | apply agree5_sym; exact A2].
  Qed.

  Theorem read_pdbG_exact oerr lines :
    option_map fst (read_pdbG fok oerr lines) = option_map fst (read_pdb fok lines).
  Proof. unfold read_pdb. rewrite <- read_loopG_never. apply loop_eq, agree5_refl. Qed.

  Theorem ingestG_exact oerr d lines : ingestG fok oerr tab d lines = ingest fok tab d lines.
  Proof.
    unfold ingestG, ingest. pose proof (read_pdbG_exact oerr lines) as E.
    destruct (read_pdbG fok oerr lines) as [[r1 e1]|], (read_pdb fok lines) as [[r2 e2]|];
      simpl in E; try discriminate; [injection E as E; subst; reflexivity | reflexivity].
  Qed.

  (* a line that is neither a coordinate record nor TER/END/MODEL (ENDMDL included) *)
  Definition other_line (u : string) : Prop :=
    is_empty u = false /\ mem_str (rec_name (strip u)) five_names = false.

  Theorem read_pdb_other l1 u l2 :
    other_line u ->
    option_map fst (read_pdb fok (l1 ++ u :: l2)) = option_map fst (read_pdb fok (l1 ++ l2)).
  Proof.
    intros [Hu H5]. unfold read_pdb. rewrite <- !read_loopG_never.
    generalize (@nil rec) as acc. generalize (@nil string) as errl.
    induction l1 as [|x l1 IH]; intros errl acc.
    - cbn [app]. destruct (stepG_nonfive (fun _ => false) u l2 acc errl Hu H5) as [e' [E A]]. rewrite E.
      apply loop_eq. exact A.
    - cbn [app read_loopG]. destruct (is_empty x); [reflexivity|].
      destruct (is_empty (strip x)); [apply IH|].
      destruct (mem_str (rec_name (strip x)) errl); [apply IH|].
      destruct (line_outcomeG fok (fun _ => false) (strip x)); try apply IH; reflexivity.
  Qed.

  Theorem ingest_other d l1 u l2 :
    other_line u -> ingest fok tab d (l1 ++ u :: l2) = ingest fok tab d (l1 ++ l2).
  Proof. intros H. apply ingest_fst, read_pdb_other, H. Qed.

  (* C07_other_records_irrelevant, for every behaviour [oerr] of the other parsers *)
  Theorem other_records_irrelevant oerr d l1 u l2 :
    other_line u ->
    ingestG fok oerr tab d (l1 ++ u :: l2) = ingestG fok oerr tab d (l1 ++ l2).
  Proof. intros H. rewrite !ingestG_exact. apply ingest_other, H. Qed.

  (* a blank line has the record name "" *)
  Theorem ingest_blank d l1 b l2 :
    blank_line b -> ingest fok tab d (l1 ++ b :: l2) = ingest fok tab d (l1 ++ l2).
  Proof. intros [Hb Hs]. apply ingest_other. split; [exact Hb|]. rewrite Hs. reflexivity. Qed.

  (* an unknown name goes on errlist, so it is none of the five *)
  Theorem ingest_unknown d l1 u l2 :
    unknown_line u -> ingest fok tab d (l1 ++ u :: l2) = ingest fok tab d (l1 ++ l2).
  Proof.
    intros [Hu Hk]. apply ingest_other. split; [exact Hu|].
    pose proof (outcome_five fok (strip u)) as H. unfold line_outcome in H. rewrite Hk in H. exact H.
  Qed.

End Other.
