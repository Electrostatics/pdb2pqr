(* Proofs about Model/Quatfit.v over the real-number instance RArith.
   (C15.  Proofs/FlipR.v (C04) and Proofs/Placement.v (C05) reuse the vector
   lemmas, chi_mat_add, rotate_about_isometry and set_dihedral_distances;
   Placement.v also tetra_120 and fit_exact_image.) *)
From Coq Require Import Reals List ZArith Lra Lia Nsatz Psatz.
From PV Require Import Lib.Lists Model.Quatfit.
Import ListNotations.
Local Open Scope R_scope.

Notation RA := RArith.
Notation Rpt := (pt (A := R)).
Notation Rmat3 := (mat3 (A := R)).
Notation Rquat := (quat (A := R)).

(* unfold the model's vector algebra down to + - * / on R; one cbv step,
   because [unfold] followed by [cbn] leaves a conversion that is slow to
   re-check at Qed *)
Ltac unf :=
  cbv [qtransform1 translate1 rot1 q2mat chi_mat normalize_with dot3 cross3 psub padd qnorm2 rayleigh
       modif_of_mode row0 row1 row2 q0 q1 q2 q3 px py pz
       a_add a_sub a_mul a_div a_zero a_one a_two a_ofZ RArith fst snd
       c00 c01 c02 c03 c11 c12 c13 c22 c23 c33 Z.eqb Pos.eqb] in *.

Lemma pt_eq : forall a b c a' b' c' : R, a = a' -> b = b' -> c = c' -> (a, b, c) = (a', b', c').
Proof. intros; subst; reflexivity. Qed.

Lemma pt_inv : forall a b c a' b' c' : R, (a, b, c) = (a', b', c') -> a = a' /\ b = b' /\ c = c'.
Proof. intros a b c a' b' c' H; inversion H; auto. Qed.

Definition dist2 (a b : Rpt) : R := dot3 RA (psub RA a b) (psub RA a b).

Definition scale (t : R) (v : Rpt) : Rpt := (t * px v, t * py v, t * pz v).

Lemma scale_1 : forall v : Rpt, scale 1 v = v.
Proof. intros [[v0 v1] v2]. unfold scale. unf. apply pt_eq; ring. Qed.

Lemma scale_scale : forall (t u : R) (v : Rpt), scale t (scale u v) = scale (t * u) v.
Proof. intros t u [[v0 v1] v2]. unfold scale. unf. apply pt_eq; ring. Qed.

Lemma psub_padd : forall u o : Rpt, psub RA (padd RA u o) o = u.
Proof. intros [[u0 u1] u2] [[o0 o1] o2]. unf. apply pt_eq; ring. Qed.

Lemma padd_psub : forall p o : Rpt, padd RA (psub RA p o) o = p.
Proof. intros [[p0 p1] p2] [[o0 o1] o2]. unf. apply pt_eq; ring. Qed.

Lemma padd_assoc : forall u v w : Rpt, padd RA u (padd RA v w) = padd RA (padd RA u v) w.
Proof. intros [[u0 u1] u2] [[v0 v1] v2] [[w0 w1] w2]. unf. apply pt_eq; ring. Qed.

Lemma psub_psub : forall p q o : Rpt, psub RA (psub RA p o) (psub RA q o) = psub RA p q.
Proof. intros [[p0 p1] p2] [[q0 q1] q2] [[o0 o1] o2]. unf. apply pt_eq; ring. Qed.

Lemma dist2_padd : forall u w o : Rpt, dist2 (padd RA u o) (padd RA w o) = dist2 u w.
Proof. intros [[u0 u1] u2] [[w0 w1] w2] [[o0 o1] o2]. unfold dist2. unf. ring. Qed.

Lemma dist2_self : forall x : Rpt, dist2 x x = 0.
Proof. intros [[x0 x1] x2]. unfold dist2. unf. ring. Qed.

Lemma dot_self_nonneg : forall v : Rpt, 0 <= dot3 RA v v.
Proof. intros [[a b] d]. unf. nra. Qed.

Lemma dot_self_zero : forall v : Rpt, dot3 RA v v = 0 -> v = (0, 0, 0).
Proof.
  intros [[a b] d] H. unf.
  assert (a = 0) by nra. assert (b = 0) by nra. assert (d = 0) by nra. subst; reflexivity.
Qed.

Lemma dot_self_nonzero : forall v : Rpt, v <> (0, 0, 0) -> dot3 RA v v <> 0.
Proof. intros v H H0. apply H. apply dot_self_zero; exact H0. Qed.

Lemma dist2_nonneg : forall a b : Rpt, 0 <= dist2 a b.
Proof. intros a b. apply dot_self_nonneg. Qed.

Lemma dist2_zero : forall a b : Rpt, dist2 a b = 0 -> a = b.
Proof.
  intros [[a0 a1] a2] [[b0 b1] b2] H. unfold dist2 in H. apply dot_self_zero in H.
  unf. apply pt_inv in H. destruct H as (H0 & H1 & H2). apply pt_eq; lra.
Qed.

Lemma norm3_sq : forall v : Rpt, norm3 RA v * norm3 RA v = dot3 RA v v.
Proof. intro v. apply sqrt_sqrt, dot_self_nonneg. Qed.

Lemma norm3_nonzero : forall v : Rpt, dot3 RA v v <> 0 -> norm3 RA v <> 0.
Proof. intros v H Hz. apply H. rewrite <- norm3_sq, Hz. ring. Qed.

Lemma normalize_unit : forall v : Rpt, dot3 RA v v <> 0 -> dot3 RA (normalize RA v) (normalize RA v) = 1.
Proof.
  intros v H. unfold normalize. assert (Hs := norm3_sq v). assert (Hn := norm3_nonzero v H).
  revert Hs Hn. generalize (norm3 RA v). intros n Hs Hn. destruct v as [[a b] d]. unf.
  field_simplify_eq; [ | exact Hn ]. transitivity (n * n); [ rewrite Hs; ring | ring ].
Qed.

Lemma normalize_parallel : forall v : Rpt, dot3 RA v v <> 0 ->
  v = scale (norm3 RA v) (normalize RA v).
Proof.
  intros v H. unfold normalize. assert (Hn := norm3_nonzero v H).
  revert Hn. generalize (norm3 RA v). intros n Hn. destruct v as [[a b] d].
  unfold scale. unf. apply pt_eq; field; exact Hn.
Qed.

Definition det3 (m : Rmat3) : R :=
  let '((a, b, c), (d, e, f), (g, h, i)) := m in
  a * (e * i - f * h) - b * (d * i - f * g) + c * (d * h - e * g).

Definition transpose3 (m : Rmat3) : Rmat3 :=
  let '((a, b, c), (d, e, f), (g, h, i)) := m in
  ((a, d, g), (b, e, h), (c, f, i)).

Definition orthonormal_rows (m : Rmat3) : Prop :=
  dot3 RA (row0 m) (row0 m) = 1 /\ dot3 RA (row1 m) (row1 m) = 1 /\ dot3 RA (row2 m) (row2 m) = 1 /\
  dot3 RA (row0 m) (row1 m) = 0 /\ dot3 RA (row0 m) (row2 m) = 0 /\ dot3 RA (row1 m) (row2 m) = 0.

(* U^T U = I, U U^T = I, det U = 1 *)
Definition proper_rotation (m : Rmat3) : Prop :=
  orthonormal_rows m /\ orthonormal_rows (transpose3 m) /\ det3 m = 1.

(* rotmol's map is linear *)
Lemma rot1_linear : forall (m : Rmat3) (a b : R) (v w : Rpt),
  rot1 RA m (padd RA (scale a v) (scale b w)) = padd RA (scale a (rot1 RA m v)) (scale b (rot1 RA m w)).
Proof.
  intros [[[[m00 m01] m02] [[m10 m11] m12]] [[m20 m21] m22]]; intros a b [[v0 v1] v2] [[w0 w1] w2].
  unfold scale; unf. apply pt_eq; ring.
Qed.

Lemma rot1_padd : forall (m : Rmat3) (v w : Rpt),
  rot1 RA m (padd RA v w) = padd RA (rot1 RA m v) (rot1 RA m w).
Proof.
  intros m v w. rewrite <- (scale_1 v), <- (scale_1 w), rot1_linear, !scale_1. reflexivity.
Qed.

Lemma rot1_sub : forall (m : Rmat3) (v w : Rpt),
  rot1 RA m (psub RA v w) = psub RA (rot1 RA m v) (rot1 RA m w).
Proof.
  intros [[[[m00 m01] m02] [[m10 m11] m12]] [[m20 m21] m22]]; intros [[v0 v1] v2] [[w0 w1] w2].
  unf. apply pt_eq; ring.
Qed.

(* rotmol's map is out = sum_j v_j * row_j, so dot products of images are
   bilinear in the Gram matrix of the rows *)
Lemma rot1_dot : forall (m : Rmat3) (v w : Rpt),
  dot3 RA (rot1 RA m v) (rot1 RA m w)
  = px v * px w * dot3 RA (row0 m) (row0 m) + py v * py w * dot3 RA (row1 m) (row1 m)
    + pz v * pz w * dot3 RA (row2 m) (row2 m)
    + (px v * py w + py v * px w) * dot3 RA (row0 m) (row1 m)
    + (px v * pz w + pz v * px w) * dot3 RA (row0 m) (row2 m)
    + (py v * pz w + pz v * py w) * dot3 RA (row1 m) (row2 m).
Proof.
  intros [[[[m00 m01] m02] [[m10 m11] m12]] [[m20 m21] m22]] [[v0 v1] v2] [[w0 w1] w2]. unf. ring.
Qed.

Lemma rot_preserves_dot : forall (m : Rmat3) (v w : Rpt),
  orthonormal_rows m -> dot3 RA (rot1 RA m v) (rot1 RA m w) = dot3 RA v w.
Proof.
  intros m v w (H1 & H2 & H3 & H4 & H5 & H6). rewrite rot1_dot, H1, H2, H3, H4, H5, H6.
  unfold dot3 at 1. cbn [a_add a_mul RArith]. ring.
Qed.

Lemma rot_preserves_dist2 : forall (m : Rmat3) (v w : Rpt),
  orthonormal_rows m -> dist2 (rot1 RA m v) (rot1 RA m w) = dist2 v w.
Proof.
  intros m v w H. unfold dist2. rewrite <- rot1_sub. apply rot_preserves_dot; exact H.
Qed.

(* q2mat is homogeneous of degree 2: for every q it is |q|^2 times a proper
   rotation, by polynomial identities that need no hypothesis *)
Definition gram_rows (k : R) (m : Rmat3) : Prop :=
  dot3 RA (row0 m) (row0 m) = k /\ dot3 RA (row1 m) (row1 m) = k /\ dot3 RA (row2 m) (row2 m) = k /\
  dot3 RA (row0 m) (row1 m) = 0 /\ dot3 RA (row0 m) (row2 m) = 0 /\ dot3 RA (row1 m) (row2 m) = 0.

Lemma gram_rows_1 : forall m : Rmat3, gram_rows 1 m = orthonormal_rows m.
Proof. reflexivity. Qed.

Lemma q2mat_gram : forall q : Rquat,
  let n := qnorm2 RA q in
  gram_rows (n * n) (q2mat RA q) /\ gram_rows (n * n) (transpose3 (q2mat RA q)) /\
  det3 (q2mat RA q) = n * n * n.
Proof.
  intros [[[a b] c] d]. unfold gram_rows, transpose3, det3. unf. repeat split; ring.
Qed.

Lemma q2mat_cross : forall (q : Rquat) (v w : Rpt),
  cross3 RA (rot1 RA (q2mat RA q) v) (rot1 RA (q2mat RA q) w)
  = scale (qnorm2 RA q) (rot1 RA (q2mat RA q) (cross3 RA v w)).
Proof.
  intros [[[a b] c] d] [[v0 v1] v2] [[w0 w1] w2]. unfold scale. unf. apply pt_eq; ring.
Qed.

(* q2mat of a unit quaternion is a proper rotation: never a reflection *)
Lemma q2mat_rotation : forall q : Rquat, qnorm2 RA q = 1 -> proper_rotation (q2mat RA q).
Proof.
  intros q H. assert (G := q2mat_gram q). cbv zeta in G. rewrite H, !Rmult_1_r, !gram_rows_1 in G. exact G.
Qed.

(* handedness: cross products are carried along (an improper map would negate) *)
Lemma q2mat_preserves_cross : forall (q : Rquat) (v w : Rpt), qnorm2 RA q = 1 ->
  rot1 RA (q2mat RA q) (cross3 RA v w) = cross3 RA (rot1 RA (q2mat RA q) v) (rot1 RA (q2mat RA q) w).
Proof. intros q v w H. rewrite q2mat_cross, H, scale_1. reflexivity. Qed.

Lemma q2mat_preserves_dot : forall (q : Rquat) (v w : Rpt), qnorm2 RA q = 1 ->
  dot3 RA (rot1 RA (q2mat RA q) v) (rot1 RA (q2mat RA q) w) = dot3 RA v w.
Proof. intros q v w H. apply rot_preserves_dot. exact (proj1 (q2mat_rotation q H)). Qed.

(* quaternion product matching the composition of rotmol maps:
   rotmol(q2mat g) o rotmol(q2mat p) = rotmol(q2mat (qmul p g)) *)
Definition qmul (p g : Rquat) : Rquat :=
  let '(a1, b1, c1, d1) := p in
  let '(a2, b2, c2, d2) := g in
  (a1 * a2 - b1 * b2 - c1 * c2 - d1 * d2,
   a1 * b2 + b1 * a2 + c1 * d2 - d1 * c2,
   a1 * c2 - b1 * d2 + c1 * a2 + d1 * b2,
   a1 * d2 + b1 * c2 - c1 * b2 + d1 * a2).

Lemma qmul_norm : forall p g : Rquat, qnorm2 RA (qmul p g) = qnorm2 RA p * qnorm2 RA g.
Proof. intros [[[a1 b1] c1] d1] [[[a2 b2] c2] d2]. unfold qmul. unf. ring. Qed.

Lemma qmul_compose : forall (p g : Rquat) (v : Rpt),
  rot1 RA (q2mat RA g) (rot1 RA (q2mat RA p) v) = rot1 RA (q2mat RA (qmul p g)) v.
Proof.
  intros [[[a1 b1] c1] d1] [[[a2 b2] c2] d2] [[v0 v1] v2]. unfold qmul. unf. apply pt_eq; ring.
Qed.

(* [chi_mat] is the matrix of qchichange: for a unit axis and (c, s) on the
   unit circle it is a proper rotation *)
Lemma chi_rotation : forall (l : Rpt) (c s : R),
  dot3 RA l l = 1 -> c * c + s * s = 1 -> proper_rotation (chi_mat RA l c s).
Proof.
  intros [[a b] d] c s H1 H2. unfold proper_rotation, orthonormal_rows, transpose3, det3. unf.
  repeat split; nsatz.
Qed.

(* every point of the axis line is fixed (no condition on c, s) *)
Lemma rot_fixes_axis : forall (l : Rpt) (c s t : R),
  dot3 RA l l = 1 -> rot1 RA (chi_mat RA l c s) (scale t l) = scale t l.
Proof.
  intros [[a b] d] c s t H. unfold scale. unf. apply pt_eq; nsatz.
Qed.

Lemma rot_isometry : forall (l : Rpt) (c s : R) (v w : Rpt),
  dot3 RA l l = 1 -> c * c + s * s = 1 ->
  dist2 (rot1 RA (chi_mat RA l c s) v) (rot1 RA (chi_mat RA l c s) w) = dist2 v w.
Proof.
  intros l c s v w H1 H2. apply rot_preserves_dist2. exact (proj1 (chi_rotation l c s H1 H2)).
Qed.

Lemma chi_preserves_dot : forall (l : Rpt) (c s : R) (v w : Rpt),
  dot3 RA l l = 1 -> c * c + s * s = 1 ->
  dot3 RA (rot1 RA (chi_mat RA l c s) v) (rot1 RA (chi_mat RA l c s) w) = dot3 RA v w.
Proof. intros l c s v w H1 H2. apply rot_preserves_dot. exact (proj1 (chi_rotation l c s H1 H2)). Qed.

Lemma chi_preserves_cross : forall (l : Rpt) (c s : R) (v w : Rpt),
  dot3 RA l l = 1 -> c * c + s * s = 1 ->
  rot1 RA (chi_mat RA l c s) (cross3 RA v w)
  = cross3 RA (rot1 RA (chi_mat RA l c s) v) (rot1 RA (chi_mat RA l c s) w).
Proof.
  intros [[a b] d] c s [[v0 v1] v2] [[w0 w1] w2] H1 H2. unf. apply pt_eq; nsatz.
Qed.

(* the map is the right-handed Rodrigues rotation:
   v' = c v + s (l x v) + (1-c)(l.v) l *)
Lemma chi_rodrigues : forall (l : Rpt) (c s : R) (v : Rpt),
  rot1 RA (chi_mat RA l c s) v
  = padd RA (padd RA (scale c v) (scale s (cross3 RA l v))) (scale ((1 - c) * dot3 RA l v) l).
Proof.
  intros [[a b] d] c s [[v0 v1] v2]. unfold scale. unf. apply pt_eq; ring.
Qed.

Lemma chi_mat_add : forall (l : Rpt) (c s c' s' : R) (v : Rpt), dot3 RA l l = 1 ->
  rot1 RA (chi_mat RA l c s) (rot1 RA (chi_mat RA l c' s') v)
  = rot1 RA (chi_mat RA l (c * c' - s * s') (s * c' + c * s')) v.
Proof.
  intros [[a b] d] c s c' s' [[v0 v1] v2] H. unf. apply pt_eq; nsatz.
Qed.

Lemma chi_mat_id : forall l v : Rpt, rot1 RA (chi_mat RA l 1 0) v = v.
Proof. intros [[a b] d] [[v0 v1] v2]. unf. apply pt_eq; ring. Qed.

(* what the rotation does to dot and triple products with a vector that is
   not rotated: identities in all variables *)
Lemma chi_dot_r : forall (l u v : Rpt) (c s : R),
  dot3 RA u (rot1 RA (chi_mat RA l c s) v)
  = c * dot3 RA u v - s * dot3 RA (cross3 RA u v) l + (1 - c) * (dot3 RA l v * dot3 RA l u).
Proof. intros [[a b] d] [[u0 u1] u2] [[v0 v1] v2] c s. unf. ring. Qed.

Lemma chi_triple_r : forall (l u v : Rpt) (c s : R),
  dot3 RA (cross3 RA u (rot1 RA (chi_mat RA l c s) v)) l
  = s * (dot3 RA l l * dot3 RA u v - dot3 RA l u * dot3 RA l v) + c * dot3 RA (cross3 RA u v) l.
Proof. intros [[a b] d] [[u0 u1] u2] [[v0 v1] v2] c s. unf. ring. Qed.

(* v'.v = c |v|^2 + (1-c) (l.v)^2 *)
Lemma chi_dot_self : forall (l v : Rpt) (c s : R),
  dot3 RA (rot1 RA (chi_mat RA l c s) v) v = c * dot3 RA v v + (1 - c) * (dot3 RA l v * dot3 RA l v).
Proof. intros [[a b] d] [[v0 v1] v2] c s. unf. ring. Qed.

(* the component along the axis is kept (no condition on c, s) *)
Lemma chi_axis_dot : forall (l v : Rpt) (c s : R),
  dot3 RA l l = 1 -> dot3 RA l (rot1 RA (chi_mat RA l c s) v) = dot3 RA l v.
Proof. intros [[a b] d] [[v0 v1] v2] c s H. unf. nsatz. Qed.

(* general angle: |v' - v|^2 = 2 (1 - c) rho^2 *)
Lemma chi_displacement : forall (l v : Rpt) (c s : R),
  dot3 RA l l = 1 -> c * c + s * s = 1 ->
  let v' := rot1 RA (chi_mat RA l c s) v in
  dist2 v' v = 2 * (1 - c) * (dot3 RA v v - dot3 RA l v * dot3 RA l v).
Proof.
  intros l v c s Hl Hcs v'.
  assert (H1 : dot3 RA v' v' = dot3 RA v v) by (apply chi_preserves_dot; assumption).
  assert (H2 := chi_dot_self l v c s). fold v' in H2.
  assert (H3 : dist2 v' v = dot3 RA v' v' + dot3 RA v v - 2 * dot3 RA v' v).
  { destruct v' as [[u0 u1] u2], v as [[v0 v1] v2]. unfold dist2. unf. ring. }
  rewrite H3, H1, H2. ring.
Qed.

(* tetrahedral completion: rotation by +-120 degrees (c = -1/2, s^2 = 3/4) *)
Lemma tetra_120 : forall (l v : Rpt) (c s : R),
  dot3 RA l l = 1 -> c = - (1 / 2) -> s * s = 3 / 4 ->
  let v' := rot1 RA (chi_mat RA l c s) v in
  let rho2 := dot3 RA v v - dot3 RA l v * dot3 RA l v in   (* squared distance to the axis *)
  dot3 RA v' v' = dot3 RA v v /\            (* distance to the first axis atom *)
  dot3 RA l v' = dot3 RA l v /\             (* projection on the axis: bond angle, distance to 2nd atom *)
  (forall t, dist2 v' (scale t l) = dist2 v (scale t l)) /\
  dist2 v' v = 3 * rho2.
Proof.
  intros l v c s Hl Hc Hs v' rho2.
  assert (Hcs : c * c + s * s = 1) by (subst c; lra).
  split; [ apply chi_preserves_dot; assumption | ].
  split; [ apply chi_axis_dot; exact Hl | ].
  split.
  - intro t. unfold v'. rewrite <- (rot_fixes_axis l c s t Hl) at 1. apply rot_isometry; assumption.
  - unfold v', rho2. rewrite chi_displacement by assumption. subst c. field.
Qed.

(* qchichange as the code calls it: the axis is the un-normalised initcoords *)

Definition chi_map (c s : R) (init : Rpt) : Rpt -> Rpt :=
  rot1 RA (chi_mat RA (normalize RA init) c s).

Lemma qchichange_map : forall (c s : R) (init : Rpt) (coords : list Rpt),
  qchichange RA c s init coords = map (chi_map c s init) coords.
Proof. reflexivity. Qed.

Lemma chi_map_axis_fixed : forall (c s : R) (init : Rpt) (t : R),
  dot3 RA init init <> 0 -> chi_map c s init (scale t init) = scale t init.
Proof.
  intros c s init t Hne. unfold chi_map.
  rewrite (normalize_parallel init Hne) at 2 3. rewrite scale_scale.
  apply rot_fixes_axis, normalize_unit, Hne.
Qed.

Lemma chi_map_isometry : forall (c s : R) (init v w : Rpt),
  dot3 RA init init <> 0 -> c * c + s * s = 1 ->
  dist2 (chi_map c s init v) (chi_map c s init w) = dist2 v w.
Proof.
  intros c s init v w Hne Hcs. unfold chi_map. apply rot_isometry; [ apply normalize_unit; exact Hne | exact Hcs ].
Qed.

Lemma chi_map_axis_dist : forall (c s : R) (init v : Rpt) (t : R),
  dot3 RA init init <> 0 -> c * c + s * s = 1 ->
  dist2 (chi_map c s init v) (scale t init) = dist2 v (scale t init).
Proof.
  intros c s init v t Hne Hcs. rewrite <- (chi_map_axis_fixed c s init t Hne) at 1.
  apply chi_map_isometry; assumption.
Qed.

(* Residue.rotate_tetrahedral / Debump.set_dihedral_angle: the same map, taken
   relative to the origin o, about the axis a - o.  So the moved point keeps
   its distance to every point of the axis line, in particular to both axis
   atoms, and all mutual distances of moved atoms are kept *)
Lemma rotate_about_chi : forall (c s : R) (o a p : Rpt),
  rotate_about RA c s o a p = padd RA (chi_map c s (psub RA a o) (psub RA p o)) o.
Proof. reflexivity. Qed.

Lemma rotate_about_axis_dist : forall (c s : R) (o a p : Rpt) (t : R),
  dot3 RA (psub RA a o) (psub RA a o) <> 0 -> c * c + s * s = 1 ->
  let x := padd RA (scale t (psub RA a o)) o in
  dist2 (rotate_about RA c s o a p) x = dist2 p x.
Proof.
  intros c s o a p t Hne Hcs x. unfold x.
  rewrite rotate_about_chi, dist2_padd, chi_map_axis_dist by assumption.
  rewrite <- (padd_psub p o) at 2. symmetry. apply dist2_padd.
Qed.

Lemma rotate_about_isometry : forall (c s : R) (o a p p' : Rpt),
  dot3 RA (psub RA a o) (psub RA a o) <> 0 -> c * c + s * s = 1 ->
  dist2 (rotate_about RA c s o a p) (rotate_about RA c s o a p') = dist2 p p'.
Proof.
  intros c s o a p p' Hne Hcs.
  rewrite !rotate_about_chi, dist2_padd, chi_map_isometry by assumption.
  unfold dist2. rewrite psub_psub. reflexivity.
Qed.

Lemma set_dihedral_distances : forall (c s : R) (o a p p' : Rpt) (t : R),
  dot3 RA (psub RA a o) (psub RA a o) <> 0 -> c * c + s * s = 1 ->
  dist2 (rotate_about RA c s o a p) o = dist2 p o /\
  dist2 (rotate_about RA c s o a p) a = dist2 p a /\
  dist2 (rotate_about RA c s o a p) (padd RA (scale t (psub RA a o)) o)
    = dist2 p (padd RA (scale t (psub RA a o)) o) /\
  dist2 (rotate_about RA c s o a p) (rotate_about RA c s o a p') = dist2 p p'.
Proof.
  intros c s o a p p' t Hne Hcs.
  assert (E0 : padd RA (scale 0 (psub RA a o)) o = o).
  { destruct a as [[a0 a1] a2], o as [[o0 o1] o2]. unfold scale. unf. apply pt_eq; ring. }
  assert (E1 : padd RA (scale 1 (psub RA a o)) o = a).
  { destruct a as [[a0 a1] a2], o as [[o0 o1] o2]. unfold scale. unf. apply pt_eq; ring. }
  assert (H0 := rotate_about_axis_dist c s o a p 0 Hne Hcs). cbv zeta in H0. rewrite E0 in H0.
  assert (H1 := rotate_about_axis_dist c s o a p 1 Hne Hcs). cbv zeta in H1. rewrite E1 in H1.
  split; [ exact H0 | ]. split; [ exact H1 | ].
  split; [ apply (rotate_about_axis_dist c s o a p t Hne Hcs) | apply rotate_about_isometry; assumption ].
Qed.

(* Torsion addition, with the sign conventions of utilities.dihedral.
   Un-normalised cos / sin numerators of utilities.dihedral:
   n1 = d12 x d32, n2 = d43 x d32, A = n1.n2, B = (n1 x n2).e  (e = d32/|d32|) *)
Definition tors_n1 (p1 p2 p3 : Rpt) : Rpt := cross3 RA (psub RA p1 p2) (psub RA p3 p2).
Definition tors_n2 (p2 p3 p4 : Rpt) : Rpt := cross3 RA (psub RA p4 p3) (psub RA p3 p2).
Definition tors_A (p1 p2 p3 p4 : Rpt) : R := dot3 RA (tors_n1 p1 p2 p3) (tors_n2 p2 p3 p4).
Definition tors_B (e p1 p2 p3 p4 : Rpt) : R :=
  dot3 RA (cross3 RA (tors_n1 p1 p2 p3) (tors_n2 p2 p3 p4)) e.

Lemma psub_padd_l : forall x o p : Rpt, psub RA (padd RA x o) p = psub RA x (psub RA p o).
Proof. intros [[x0 x1] x2] [[o0 o1] o2] [[p0 p1] p2]. unf. apply pt_eq; ring. Qed.

Lemma dot_cross_scale : forall (e u : Rpt) (L : R), dot3 RA e (cross3 RA u (scale L e)) = 0.
Proof. intros [[e0 e1] e2] [[u0 u1] u2] L. unfold scale. unf. ring. Qed.

Lemma tors_normals_perp : forall (p1 p2 p3 p4 e : Rpt) (L : R), psub RA p3 p2 = scale L e ->
  dot3 RA e (tors_n1 p1 p2 p3) = 0 /\ dot3 RA e (tors_n2 p2 p3 p4) = 0.
Proof.
  intros p1 p2 p3 p4 e L Hd. unfold tors_n1, tors_n2. rewrite Hd. split; apply dot_cross_scale.
Qed.

(* rotating p4 about the axis p2 -> p3, as set_dihedral_angle does (origin p2,
   axis e = unit(p3 - p2)), rotates the normal n2: the rotation fixes p3 - p2
   and carries cross products along *)
Lemma tors_n2_rotated : forall (p2 p3 p4 e : Rpt) (L c s : R),
  dot3 RA e e = 1 -> psub RA p3 p2 = scale L e -> c * c + s * s = 1 ->
  tors_n2 p2 p3 (padd RA (rot1 RA (chi_mat RA e c s) (psub RA p4 p2)) p2)
  = rot1 RA (chi_mat RA e c s) (tors_n2 p2 p3 p4).
Proof.
  intros p2 p3 p4 e L c s He Hd Hcs. unfold tors_n2.
  assert (Hfix : rot1 RA (chi_mat RA e c s) (psub RA p3 p2) = psub RA p3 p2).
  { rewrite Hd. apply rot_fixes_axis; exact He. }
  rewrite chi_preserves_cross by assumption. rewrite Hfix. f_equal.
  rewrite psub_padd_l, <- (psub_psub p4 p3 p2), (rot1_sub _ (psub RA p4 p2)), Hfix. reflexivity.
Qed.

(* Hence (A, B) turns by the SAME angle in the SAME sense, and |n2| is kept. *)
Lemma torsion_rotation_algebra : forall (p1 p2 p3 p4 e : Rpt) (L c s : R),
  dot3 RA e e = 1 -> psub RA p3 p2 = scale L e -> c * c + s * s = 1 ->
  let p4' := padd RA (rot1 RA (chi_mat RA e c s) (psub RA p4 p2)) p2 in
  tors_A p1 p2 p3 p4' = c * tors_A p1 p2 p3 p4 - s * tors_B e p1 p2 p3 p4 /\
  tors_B e p1 p2 p3 p4' = s * tors_A p1 p2 p3 p4 + c * tors_B e p1 p2 p3 p4 /\
  dot3 RA (tors_n2 p2 p3 p4') (tors_n2 p2 p3 p4') = dot3 RA (tors_n2 p2 p3 p4) (tors_n2 p2 p3 p4).
Proof.
  intros p1 p2 p3 p4 e L c s He Hd Hcs p4'. unfold tors_A, tors_B, p4'.
  rewrite (tors_n2_rotated p2 p3 p4 e L c s He Hd Hcs).
  destruct (tors_normals_perp p1 p2 p3 p4 e L Hd) as [E1 E2].
  rewrite chi_dot_r, chi_triple_r, He, E1, E2.
  split; [ ring | ]. split; [ ring | apply chi_preserves_dot; assumption ].
Qed.

(* Lagrange's identity for u x v and for (u x v) x e = v (u.e) - u (v.e) *)
Lemma lagrange_triple : forall e u v : Rpt,
  dot3 RA e e * (dot3 RA u v * dot3 RA u v) + dot3 RA (cross3 RA u v) e * dot3 RA (cross3 RA u v) e
  = dot3 RA e e * (dot3 RA u u * dot3 RA v v)
    - (dot3 RA e u * dot3 RA e u * dot3 RA v v - 2 * (dot3 RA e u * dot3 RA e v * dot3 RA u v)
       + dot3 RA e v * dot3 RA e v * dot3 RA u u).
Proof. intros [[e0 e1] e2] [[u0 u1] u2] [[v0 v1] v2]. unf. ring. Qed.

(* what utilities.dihedral computes before acos: scal = n1.n2/(|n1||n2|),
   chiral = (n1 x n2).d32/(|n1||n2|) *)
Lemma dihedral_sc_formula : forall p1 p2 p3 p4 : Rpt,
  let n1 := tors_n1 p1 p2 p3 in
  let n2 := tors_n2 p2 p3 p4 in
  dot3 RA n1 n1 <> 0 -> dot3 RA n2 n2 <> 0 ->
  dihedral_sc RA p1 p2 p3 p4 =
  (dot3 RA n1 n2 / (norm3 RA n1 * norm3 RA n2),
   dot3 RA (cross3 RA n1 n2) (psub RA p3 p2) / (norm3 RA n1 * norm3 RA n2)).
Proof.
  intros p1 p2 p3 p4 n1 n2 H1 H2.
  unfold dihedral_sc, normalize.
  change (cross3 RA (psub RA p1 p2) (psub RA p3 p2)) with n1.
  change (cross3 RA (psub RA p4 p3) (psub RA p3 p2)) with n2.
  assert (N1 := norm3_nonzero n1 H1). assert (N2 := norm3_nonzero n2 H2).
  revert N1 N2. generalize (norm3 RA n1) (norm3 RA n2) (psub RA p3 p2). clearbody n1 n2.
  destruct n1 as [[a1 b1] d1], n2 as [[a2 b2] d2]. intros m1 m2 [[e0 e1] e2] N1 N2.
  unf. f_equal; field; split; assumption.
Qed.

(* C15 torsion addition: rotate p4 (and everything beyond it) about the axis
   p2 -> p3 by the angle whose cosine/sine are (c, s), exactly as
   Debump.set_dihedral_angle does through qchichange.  With
     cos(phi) := scal,  sin(phi) := chiral / |p3 - p2|
   (scal, chiral as computed by utilities.dihedral; its result is
   sign(chiral) * acos(scal)), the measured torsion turns by the same angle in
   the same sense, and (cos(phi), sin(phi)) is on the unit circle. *)
Theorem torsion_addition : forall (p1 p2 p3 p4 : Rpt) (c s : R),
  c * c + s * s = 1 ->
  dot3 RA (tors_n1 p1 p2 p3) (tors_n1 p1 p2 p3) <> 0 ->
  dot3 RA (tors_n2 p2 p3 p4) (tors_n2 p2 p3 p4) <> 0 ->
  let p4' := rotate_about RA c s p2 p3 p4 in
  let L := norm3 RA (psub RA p3 p2) in
  let cs := dihedral_sc RA p1 p2 p3 p4 in
  let cs' := dihedral_sc RA p1 p2 p3 p4' in
  fst cs' = c * fst cs - s * (snd cs / L) /\
  snd cs' / L = s * fst cs + c * (snd cs / L) /\
  fst cs * fst cs + (snd cs / L) * (snd cs / L) = 1.
Proof.
  intros p1 p2 p3 p4 c s Hcs H1 H2 p4' L cs cs'.
  assert (Hd : dot3 RA (psub RA p3 p2) (psub RA p3 p2) <> 0).
  { intro Hz. apply dot_self_zero in Hz. apply H1. unfold tors_n1. rewrite Hz.
    destruct (psub RA p1 p2) as [[a b] d]. unf. ring. }
  set (e := normalize RA (psub RA p3 p2)).
  assert (He : dot3 RA e e = 1) by (apply normalize_unit; exact Hd).
  assert (Hpar : psub RA p3 p2 = scale L e) by (apply normalize_parallel; exact Hd).
  assert (HL : L <> 0) by (apply norm3_nonzero; exact Hd).
  destruct (torsion_rotation_algebra p1 p2 p3 p4 e L c s He Hpar Hcs) as (TA & TB & TN).
  change (padd RA (rot1 RA (chi_mat RA e c s) (psub RA p4 p2)) p2) with p4' in TA, TB, TN.
  assert (H2' : dot3 RA (tors_n2 p2 p3 p4') (tors_n2 p2 p3 p4') <> 0) by (rewrite TN; exact H2).
  unfold cs, cs'.
  rewrite (dihedral_sc_formula p1 p2 p3 p4 H1 H2), (dihedral_sc_formula p1 p2 p3 p4' H1 H2').
  cbn [fst snd].
  replace (norm3 RA (tors_n2 p2 p3 p4')) with (norm3 RA (tors_n2 p2 p3 p4))
    by (unfold norm3; rewrite TN; reflexivity).
  (* express everything with A, B *)
  assert (HB : forall q4, dot3 RA (cross3 RA (tors_n1 p1 p2 p3) (tors_n2 p2 p3 q4)) (psub RA p3 p2)
                          = L * tors_B e p1 p2 p3 q4).
  { intro q4. unfold tors_B. rewrite Hpar.
    destruct (cross3 RA (tors_n1 p1 p2 p3) (tors_n2 p2 p3 q4)) as [[u0 u1] u2], e as [[e0 e1] e2].
    unfold scale. unf. ring. }
  rewrite (HB p4), (HB p4').
  fold (tors_A p1 p2 p3 p4) (tors_A p1 p2 p3 p4'). rewrite TA, TB.
  (* A^2 + B^2 = |n1|^2 |n2|^2, because n1 and n2 are orthogonal to e *)
  assert (Lag := lagrange_triple e (tors_n1 p1 p2 p3) (tors_n2 p2 p3 p4)).
  destruct (tors_normals_perp p1 p2 p3 p4 e L Hpar) as [E1 E2].
  rewrite He, E1, E2, <- (norm3_sq (tors_n1 p1 p2 p3)), <- (norm3_sq (tors_n2 p2 p3 p4)) in Lag.
  fold (tors_A p1 p2 p3 p4) (tors_B e p1 p2 p3 p4) in Lag.
  assert (N1 := norm3_nonzero _ H1). assert (N2 := norm3_nonzero _ H2).
  revert Lag N1 N2.
  generalize (norm3 RA (tors_n1 p1 p2 p3)) (norm3 RA (tors_n2 p2 p3 p4))
             (tors_A p1 p2 p3 p4) (tors_B e p1 p2 p3 p4).
  intros m1 m2 A B Lag N1 N2.
  assert (Lag' : A * A + B * B = m1 * m1 * (m2 * m2)) by lra.
  split; [ field; repeat split; assumption | ].
  split; [ field; repeat split; assumption | ].
  field_simplify_eq; [ | repeat split; assumption ].
  transitivity (m1 * m1 * (m2 * m2)); [ rewrite <- Lag'; ring | ring ].
Qed.

Corollary torsion_addition_angles : forall (p1 p2 p3 p4 : Rpt) (phi theta : R),
  dot3 RA (tors_n1 p1 p2 p3) (tors_n1 p1 p2 p3) <> 0 ->
  dot3 RA (tors_n2 p2 p3 p4) (tors_n2 p2 p3 p4) <> 0 ->
  let L := norm3 RA (psub RA p3 p2) in
  fst (dihedral_sc RA p1 p2 p3 p4) = cos phi ->
  snd (dihedral_sc RA p1 p2 p3 p4) / L = sin phi ->
  let p4' := rotate_about RA (cos theta) (sin theta) p2 p3 p4 in
  fst (dihedral_sc RA p1 p2 p3 p4') = cos (phi + theta) /\
  snd (dihedral_sc RA p1 p2 p3 p4') / L = sin (phi + theta).
Proof.
  intros p1 p2 p3 p4 phi theta H1 H2 L Hc Hs p4'.
  assert (Hcs : cos theta * cos theta + sin theta * sin theta = 1).
  { generalize (sin2_cos2 theta). unfold Rsqr. lra. }
  destruct (torsion_addition p1 p2 p3 p4 (cos theta) (sin theta) Hcs H1 H2) as (TA & TB & _).
  fold p4' in TA, TB. fold L in TA, TB. rewrite Hc, Hs in TA, TB.
  rewrite cos_plus, sin_plus. split; [ rewrite TA; ring | rewrite TB; ring ].
Qed.

Fixpoint lsum {X : Type} (f : X -> R) (l : list X) : R :=
  match l with
  | [] => 0
  | x :: t => f x + lsum f t
  end.

Lemma fold_left_acc : forall (X : Type) (f : X -> R) (l : list X) (a : R),
  fold_left (fun acc x => acc + f x) l a = a + lsum f l.
Proof.
  intros X f l. induction l as [| x t IH]; intro a; cbn [fold_left lsum].
  - ring.
  - rewrite IH. ring.
Qed.

Lemma sum_prod_lsum : forall (f g : Rpt -> R) (l : list (Rpt * Rpt)),
  sum_prod RA f g l = lsum (fun xy => f (fst xy) * g (snd xy)) l.
Proof.
  intros f g l. unfold sum_prod. cbn [a_add a_mul a_zero RArith].
  rewrite (fold_left_acc _ (fun xy => f (fst xy) * g (snd xy))). ring.
Qed.

Lemma sum_coord_lsum : forall (f : Rpt -> R) (l : list Rpt), sum_coord RA f l = lsum f l.
Proof.
  intros f l. unfold sum_coord. cbn [a_add a_zero RArith]. rewrite fold_left_acc. ring.
Qed.

Lemma lsum_map : forall (X Y : Type) (h : X -> Y) (f : Y -> R) (l : list X),
  lsum f (map h l) = lsum (fun x => f (h x)) l.
Proof. intros X Y h f l. induction l as [| x t IH]; cbn [map lsum]; [ reflexivity | rewrite IH; reflexivity ]. Qed.

Lemma lsum_ext : forall (X : Type) (f g : X -> R) (l : list X),
  (forall x, f x = g x) -> lsum f l = lsum g l.
Proof. intros X f g l H. induction l as [| x t IH]; cbn [lsum]; [ reflexivity | rewrite H, IH; reflexivity ]. Qed.

Lemma lsum_lin : forall (X : Type) (f g : X -> R) (a b : R) (l : list X),
  lsum (fun x => a * f x + b * g x) l = a * lsum f l + b * lsum g l.
Proof. intros X f g a b l. induction l as [| x t IH]; cbn [lsum]; [ ring | rewrite IH; ring ]. Qed.

Lemma lsum_nonneg : forall (X : Type) (f : X -> R) (l : list X),
  (forall x, 0 <= f x) -> 0 <= lsum f l.
Proof.
  intros X f l H. induction l as [| x t IH]; cbn [lsum]; [ lra | specialize (H x); lra ].
Qed.

Lemma lsum_nonneg_zero : forall (X : Type) (f : X -> R) (l : list X),
  (forall x, 0 <= f x) -> lsum f l <= 0 -> forall x, In x l -> f x = 0.
Proof.
  intros X f l H. induction l as [| y t IH]; cbn [lsum]; intros Hs x Hin.
  - destruct Hin.
  - assert (Ht := lsum_nonneg X f t H). assert (Hy := H y).
    destruct Hin as [-> | Hin]; [ lra | apply IH; [ lra | exact Hin ] ].
Qed.

(* Rayleigh identity: q^T C q is the sum of ref_i . rotmol(q2mat q) def_i.  It
   ties the matrix entries of qtrfit to the transposition convention of rotmol *)
Lemma rayleigh_identity : forall (defs refs : list Rpt) (q : Rquat),
  rayleigh RA (cmat RA defs refs) q
  = lsum (fun xy => dot3 RA (snd xy) (rot1 RA (q2mat RA q) (fst xy))) (combine defs refs).
Proof.
  intros defs refs q. unfold cmat. generalize (combine defs refs). intro l.
  cbv zeta. rewrite !sum_prod_lsum.
  induction l as [| [x y] t IH].
  - cbn [lsum]. unf. ring.
  - cbn [lsum]. rewrite <- IH. clear IH.
    destruct x as [[x0 x1] x2], y as [[y0 y1] y2], q as [[[a b] c] d]. unf. ring.
Qed.

(* value of the quadratic form when the fitted set is an exact image *)
Lemma rayleigh_exact_image : forall (xs : list Rpt) (p r : Rquat),
  rayleigh RA (cmat RA xs (map (rot1 RA (q2mat RA p)) xs)) r
  = lsum (fun x => dot3 RA (rot1 RA (q2mat RA p) x) (rot1 RA (q2mat RA r) x)) xs.
Proof.
  intros xs p r. rewrite rayleigh_identity, combine_map_r, lsum_map. reflexivity.
Qed.

(* the gap identity: for an exact image under p the quadratic form at a unit r
   falls short of its value at p by half the summed squared distances between
   the two images; so p is a unit maximiser (exact_image_p_maximal) and a unit
   maximiser maps every fitted point as p does (fit_rotation_agrees) *)
Lemma rayleigh_exact_gap : forall (xs : list Rpt) (p r : Rquat),
  qnorm2 RA p = 1 -> qnorm2 RA r = 1 ->
  let C := cmat RA xs (map (rot1 RA (q2mat RA p)) xs) in
  lsum (fun x => dist2 (rot1 RA (q2mat RA p) x) (rot1 RA (q2mat RA r) x)) xs
  = 2 * (rayleigh RA C p - rayleigh RA C r).
Proof.
  intros xs p r Hp Hr C. unfold C. rewrite !rayleigh_exact_image.
  rewrite (lsum_ext _ (fun x => dist2 (rot1 RA (q2mat RA p) x) (rot1 RA (q2mat RA r) x))
             (fun x => 2 * dot3 RA (rot1 RA (q2mat RA p) x) (rot1 RA (q2mat RA p) x)
                       + (-2) * dot3 RA (rot1 RA (q2mat RA p) x) (rot1 RA (q2mat RA r) x))).
  - rewrite lsum_lin. ring.
  - intro x.
    assert (H1 := q2mat_preserves_dot p x x Hp). assert (H2 := q2mat_preserves_dot r x x Hr).
    revert H1 H2. generalize (rot1 RA (q2mat RA p) x) (rot1 RA (q2mat RA r) x).
    intros [[u0 u1] u2] [[w0 w1] w2]. destruct x as [[x0 x1] x2]. unfold dist2. unf. intros H1 H2. nsatz.
Qed.

Lemma exact_image_p_maximal : forall (xs : list Rpt) (p r : Rquat),
  qnorm2 RA p = 1 -> qnorm2 RA r = 1 ->
  let C := cmat RA xs (map (rot1 RA (q2mat RA p)) xs) in
  rayleigh RA C r <= rayleigh RA C p.
Proof.
  intros xs p r Hp Hr C.
  assert (G := rayleigh_exact_gap xs p r Hp Hr). fold C in G.
  assert (N := lsum_nonneg _ (fun x => dist2 (rot1 RA (q2mat RA p) x) (rot1 RA (q2mat RA r) x)) xs
                 (fun x => dist2_nonneg _ _)).
  lra.
Qed.

(* a unit maximiser rotates every fitted point exactly onto its target *)
Lemma fit_rotation_agrees : forall (xs : list Rpt) (p q : Rquat),
  qnorm2 RA p = 1 -> qnorm2 RA q = 1 ->
  let C := cmat RA xs (map (rot1 RA (q2mat RA p)) xs) in
  rayleigh RA C p <= rayleigh RA C q ->
  forall x, In x xs -> rot1 RA (q2mat RA q) x = rot1 RA (q2mat RA p) x.
Proof.
  intros xs p q Hp Hq C Hmax x Hin.
  assert (G := rayleigh_exact_gap xs p q Hp Hq). fold C in G.
  symmetry. apply dist2_zero.
  apply (lsum_nonneg_zero _ (fun x => dist2 (rot1 RA (q2mat RA p) x) (rot1 RA (q2mat RA q) x)) xs).
  - intro y. apply dist2_nonneg.
  - lra.
  - exact Hin.
Qed.

(* Two proper rotations that agree on two independent vectors are equal
   (rot_agree_all); the lemmas up to there prepare it. *)

Lemma perp_three_zero : forall (u v d : Rpt),
  dot3 RA (cross3 RA u v) (cross3 RA u v) <> 0 ->
  dot3 RA d u = 0 -> dot3 RA d v = 0 -> dot3 RA d (cross3 RA u v) = 0 -> d = (0, 0, 0).
Proof.
  intros [[u0 u1] u2] [[v0 v1] v2] [[d0 d1] d2] Hn H1 H2 H3. unf.
  set (nn := (u1 * v2 - u2 * v1) * (u1 * v2 - u2 * v1) + (u2 * v0 - u0 * v2) * (u2 * v0 - u0 * v2)
             + (u0 * v1 - u1 * v0) * (u0 * v1 - u1 * v0)) in *.
  assert (E0 : d0 * nn = 0) by (unfold nn; nsatz).
  assert (E1 : d1 * nn = 0) by (unfold nn; nsatz).
  assert (E2 : d2 * nn = 0) by (unfold nn; nsatz).
  apply Rmult_integral in E0. apply Rmult_integral in E1. apply Rmult_integral in E2.
  apply pt_eq; tauto.
Qed.

Lemma rot1_rows : forall (m : Rmat3) (v : Rpt),
  rot1 RA m v = (dot3 RA (row0 (transpose3 m)) v, dot3 RA (row1 (transpose3 m)) v,
                 dot3 RA (row2 (transpose3 m)) v).
Proof. intros [[[[m00 m01] m02] [[m10 m11] m12]] [[m20 m21] m22]] [[v0 v1] v2]. reflexivity. Qed.

Lemma dot_agree_three : forall u v r r' : Rpt,
  dot3 RA (cross3 RA u v) (cross3 RA u v) <> 0 ->
  dot3 RA r u = dot3 RA r' u -> dot3 RA r v = dot3 RA r' v ->
  dot3 RA r (cross3 RA u v) = dot3 RA r' (cross3 RA u v) -> r = r'.
Proof.
  intros u v r r' Hn Hu Hv Hc. apply dist2_zero. unfold dist2.
  assert (D : forall x, dot3 RA (psub RA r r') x = dot3 RA r x - dot3 RA r' x).
  { intros [[x0 x1] x2]. destruct r as [[a0 a1] a2], r' as [[b0 b1] b2]. unf. ring. }
  rewrite (perp_three_zero u v (psub RA r r') Hn); [ unf; ring | | | ]; rewrite D; lra.
Qed.

Lemma mat_agree_all : forall (M M' : Rmat3) (u v : Rpt),
  dot3 RA (cross3 RA u v) (cross3 RA u v) <> 0 ->
  rot1 RA M u = rot1 RA M' u -> rot1 RA M v = rot1 RA M' v ->
  rot1 RA M (cross3 RA u v) = rot1 RA M' (cross3 RA u v) ->
  forall w, rot1 RA M w = rot1 RA M' w.
Proof.
  intros M M' u v Hn Hu Hv Hc w. rewrite !rot1_rows in *.
  apply pt_inv in Hu, Hv, Hc.
  destruct Hu as (U0 & U1 & U2), Hv as (V0 & V1 & V2), Hc as (C0 & C1 & C2).
  rewrite (dot_agree_three u v _ _ Hn U0 V0 C0), (dot_agree_three u v _ _ Hn U1 V1 C1),
          (dot_agree_three u v _ _ Hn U2 V2 C2). reflexivity.
Qed.

Lemma rot_agree_all : forall (p q : Rquat) (u v : Rpt),
  qnorm2 RA p = 1 -> qnorm2 RA q = 1 ->
  cross3 RA u v <> (0, 0, 0) ->
  rot1 RA (q2mat RA q) u = rot1 RA (q2mat RA p) u ->
  rot1 RA (q2mat RA q) v = rot1 RA (q2mat RA p) v ->
  forall w, rot1 RA (q2mat RA q) w = rot1 RA (q2mat RA p) w.
Proof.
  intros p q u v Hp Hq Hn Hu Hv.
  apply (mat_agree_all (q2mat RA q) (q2mat RA p) u v).
  - apply dot_self_nonzero; exact Hn.
  - exact Hu.
  - exact Hv.
  - rewrite (q2mat_preserves_cross q u v Hq), (q2mat_preserves_cross p u v Hp), Hu, Hv. reflexivity.
Qed.

(* Centering commutes with rigid motions (center_rigid_fst, center_rigid_snd).
   [rigid M T] is the rigid motion X |-> T + rotmol(M) X. *)
Definition rigid (M : Rmat3) (T : Rpt) (X : Rpt) : Rpt := padd RA T (rot1 RA M X).

Lemma lsum_rigid : forall (M : Rmat3) (T : Rpt) (l : list Rpt),
  (lsum (px (A := R)) (map (rigid M T) l), lsum (py (A := R)) (map (rigid M T) l), lsum (pz (A := R)) (map (rigid M T) l))
  = padd RA (scale (INR (length l)) T) (rot1 RA M (lsum (px (A := R)) l, lsum (py (A := R)) l, lsum (pz (A := R)) l)).
Proof.
  intros [[[[m00 m01] m02] [[m10 m11] m12]] [[m20 m21] m22]] [[t0 t1] t2] l.
  induction l as [| [[x0 x1] x2] t IH].
  - cbn [map lsum length INR]. unfold scale. unf. apply pt_eq; ring.
  - cbn [map lsum length]. rewrite S_INR. apply pt_inv in IH. destruct IH as (I0 & I1 & I2).
    unfold scale in *. unfold rigid in *. unf. cbn [fst snd] in *.
    apply pt_eq; [ rewrite I0 | rewrite I1 | rewrite I2 ]; ring.
Qed.

Lemma center_fst : forall l : list Rpt,
  fst (center RA l) = scale (/ INR (length l)) (lsum (px (A := R)) l, lsum (py (A := R)) l, lsum (pz (A := R)) l).
Proof.
  intro l. unfold center. cbn [fst]. rewrite !sum_coord_lsum. cbn [a_ofZ a_div RArith].
  rewrite <- INR_IZR_INZ. unfold scale, Rdiv. unf. apply pt_eq; ring.
Qed.

Lemma center_snd : forall l : list Rpt,
  snd (center RA l) = map (fun p => psub RA p (fst (center RA l))) l.
Proof. intro l. unfold center. cbn [fst snd]. reflexivity. Qed.

Lemma center_rigid_fst : forall (M : Rmat3) (T : Rpt) (l : list Rpt), l <> [] ->
  fst (center RA (map (rigid M T) l)) = rigid M T (fst (center RA l)).
Proof.
  intros M T l Hne. rewrite !center_fst. rewrite lsum_rigid. rewrite map_length.
  assert (Hn : INR (length l) <> 0).
  { apply not_0_INR. destruct l; [ congruence | discriminate ]. }
  generalize (lsum (px (A := R)) l, lsum (py (A := R)) l, lsum (pz (A := R)) l). intros [[s0 s1] s2].
  revert Hn. generalize (INR (length l)). intros n Hn.
  destruct M as [[[[m00 m01] m02] [[m10 m11] m12]] [[m20 m21] m22]], T as [[t0 t1] t2].
  unfold rigid, scale. unf. apply pt_eq; field; exact Hn.
Qed.

Lemma center_rigid_snd : forall (M : Rmat3) (T : Rpt) (l : list Rpt),
  snd (center RA (map (rigid M T) l)) = map (rot1 RA M) (snd (center RA l)).
Proof.
  intros M T l. destruct l as [| x0 l0]; [ reflexivity | ].
  rewrite !center_snd, center_rigid_fst by discriminate.
  rewrite !map_map. apply map_ext. intro X.
  generalize (fst (center RA (x0 :: l0))). intro c. rewrite rot1_sub. unfold rigid.
  generalize (rot1 RA M X) (rot1 RA M c). intros [[u0 u1] u2] [[w0 w1] w2].
  destruct T as [[t0 t1] t2]. unf. apply pt_eq; ring.
Qed.

Lemma find_coordinates_eq : forall (refs defs : list Rpt) (atom : Rpt),
  defs <> [] -> length refs = length defs ->
  find_coordinates RA (length defs) refs defs atom
  = Some (qtransform1 RA atom (fst (center RA refs)) (fst (center RA defs))
            (q2mat RA (qtrfit_quat RA NROT (snd (center RA defs)) (snd (center RA refs))))).
Proof.
  intros refs defs atom Hne Hlen. unfold find_coordinates.
  destruct (length defs =? 0)%nat eqn:E.
  { apply Nat.eqb_eq in E. destruct defs; [ congruence | discriminate ]. }
  rewrite Hlen, Nat.ltb_irrefl. cbn [orb].
  rewrite (firstn_all defs). rewrite <- Hlen. rewrite (firstn_all refs).
  unfold qfit, qtrfit.
  destruct (center RA refs) as [rc rr]. destruct (center RA defs) as [dc dr]. reflexivity.
Qed.

(* three template points that are not on one line *)
Definition noncollinear (l : list Rpt) : Prop :=
  exists a b c, In a l /\ In b l /\ In c l /\ cross3 RA (psub RA b a) (psub RA c a) <> (0, 0, 0).

(* The eigen-solver's contract for one call qtrfit(defrel, refrel): the
   returned quaternion is a unit vector maximising q^T C q over unit vectors
   (i.e. a unit eigenvector of the largest eigenvalue).  Jacobi's convergence
   is not verified; the harness validates this contract on every call. *)
Definition eigen_contract (defrel refrel : list Rpt) (q : Rquat) : Prop :=
  qnorm2 RA q = 1 /\
  forall r : Rquat, qnorm2 RA r = 1 ->
    rayleigh RA (cmat RA defrel refrel) r <= rayleigh RA (cmat RA defrel refrel) q.

(* core: ANY unit maximiser gives the rotation of p on all of space *)
Lemma fit_rotation_unique : forall (defs : list Rpt) (p q : Rquat) (T : Rpt),
  qnorm2 RA p = 1 -> noncollinear defs ->
  let refs := map (rigid (q2mat RA p) T) defs in
  eigen_contract (snd (center RA defs)) (snd (center RA refs)) q ->
  forall w, rot1 RA (q2mat RA q) w = rot1 RA (q2mat RA p) w.
Proof.
  intros defs p q T Hp (a & b & c & Ha & Hb & Hc & Hn) refs (Hq & Hmax).
  unfold refs in Hmax. rewrite center_rigid_snd in Hmax.
  specialize (Hmax p Hp).
  assert (Hag := fit_rotation_agrees (snd (center RA defs)) p q Hp Hq Hmax).
  set (cd := fst (center RA defs)) in *.
  assert (Hin : forall x, In x defs -> In (psub RA x cd) (snd (center RA defs))).
  { intros x Hx. rewrite center_snd. apply (in_map (fun p0 => psub RA p0 (fst (center RA defs)))). exact Hx. }
  assert (Ea := Hag _ (Hin a Ha)). assert (Eb := Hag _ (Hin b Hb)). assert (Ec := Hag _ (Hin c Hc)).
  apply (rot_agree_all p q (psub RA b a) (psub RA c a) Hp Hq Hn).
  - rewrite <- (psub_psub b a cd), (rot1_sub (q2mat RA q) (psub RA b cd) (psub RA a cd)),
            (rot1_sub (q2mat RA p) (psub RA b cd) (psub RA a cd)), Ea, Eb. reflexivity.
  - rewrite <- (psub_psub c a cd), (rot1_sub (q2mat RA q) (psub RA c cd) (psub RA a cd)),
            (rot1_sub (q2mat RA p) (psub RA c cd) (psub RA a cd)), Ea, Ec. reflexivity.
Qed.

Lemma qtransform_rigid : forall (M : Rmat3) (T atom cd : Rpt),
  qtransform1 RA atom (rigid M T cd) cd M = rigid M T atom.
Proof.
  intros [[[[m00 m01] m02] [[m10 m11] m12]] [[m20 m21] m22]] [[t0 t1] t2] [[a0 a1] a2] [[d0 d1] d2].
  unfold rigid. unf. apply pt_eq; ring.
Qed.

Lemma qtransform_ext : forall (M M' : Rmat3) (atom rc fc : Rpt),
  (forall w, rot1 RA M w = rot1 RA M' w) ->
  qtransform1 RA atom rc fc M = qtransform1 RA atom rc fc M'.
Proof. intros M M' atom rc fc H. unfold qtransform1. rewrite H. reflexivity. Qed.

(* C15, exact image: when the reference points are the image of the template
   under a rigid motion and the eigen-solver meets its contract,
   find_coordinates places the atom by that motion *)
Theorem fit_exact_image : forall (defs : list Rpt) (p : Rquat) (T atom : Rpt),
  qnorm2 RA p = 1 -> noncollinear defs ->
  let refs := map (rigid (q2mat RA p) T) defs in
  let defrel := snd (center RA defs) in
  let refrel := snd (center RA refs) in
  eigen_contract defrel refrel (qtrfit_quat RA NROT defrel refrel) ->
  (forall x, In x defrel ->
     rot1 RA (q2mat RA (qtrfit_quat RA NROT defrel refrel)) x = rot1 RA (q2mat RA p) x) /\
  find_coordinates RA (length defs) refs defs atom = Some (rigid (q2mat RA p) T atom).
Proof.
  intros defs p T atom Hp Hnc refs defrel refrel Hc.
  assert (Hall := fit_rotation_unique defs p _ T Hp Hnc Hc).
  split; [ intros x _; apply Hall | ].
  assert (Hne : defs <> []).
  { destruct Hnc as (a & _ & _ & Ha & _). destruct defs; [ destruct Ha | discriminate ]. }
  rewrite find_coordinates_eq; [ | exact Hne | unfold refs; apply map_length ].
  f_equal. fold defrel refrel.
  rewrite (qtransform_ext _ (q2mat RA p) _ _ _ Hall).
  unfold refs. rewrite center_rigid_fst by exact Hne. apply qtransform_rigid.
Qed.

(* the contract is satisfiable for every exact image: p itself is a unit
   maximiser (used for non-vacuity) *)
Lemma eigen_contract_satisfiable : forall (defs : list Rpt) (p : Rquat) (T : Rpt),
  qnorm2 RA p = 1 ->
  eigen_contract (snd (center RA defs)) (snd (center RA (map (rigid (q2mat RA p) T) defs))) p.
Proof.
  intros defs p T Hp. split; [ exact Hp | ].
  intros r Hr. rewrite center_rigid_snd. apply exact_image_p_maximal; assumption.
Qed.

Lemma rigid_compose : forall (p g : Rquat) (T S X : Rpt),
  rigid (q2mat RA g) S (rigid (q2mat RA p) T X)
  = rigid (q2mat RA (qmul p g)) (rigid (q2mat RA g) S T) X.
Proof.
  intros p g T S X. unfold rigid. rewrite <- qmul_compose, rot1_padd. apply padd_assoc.
Qed.

(* equivariance: moving the structure by a further rigid motion (g, S) moves
   the placed atom by the same motion (exact-image case; each call of the
   eigen-solver meets its contract) *)
Theorem fit_equivariant : forall (defs : list Rpt) (p g : Rquat) (T S atom : Rpt),
  qnorm2 RA p = 1 -> qnorm2 RA g = 1 -> noncollinear defs ->
  let refs := map (rigid (q2mat RA p) T) defs in
  let refs' := map (rigid (q2mat RA g) S) refs in
  let defrel := snd (center RA defs) in
  eigen_contract defrel (snd (center RA refs)) (qtrfit_quat RA NROT defrel (snd (center RA refs))) ->
  eigen_contract defrel (snd (center RA refs')) (qtrfit_quat RA NROT defrel (snd (center RA refs'))) ->
  exists r, find_coordinates RA (length defs) refs defs atom = Some r /\
            find_coordinates RA (length defs) refs' defs atom = Some (rigid (q2mat RA g) S r).
Proof.
  intros defs p g T S atom Hp Hg Hnc refs refs' defrel Hc Hc'.
  exists (rigid (q2mat RA p) T atom). split.
  - apply (fit_exact_image defs p T atom Hp Hnc Hc).
  - assert (E : refs' = map (rigid (q2mat RA (qmul p g)) (rigid (q2mat RA g) S T)) defs).
    { unfold refs', refs. rewrite map_map. apply map_ext. intro X. apply rigid_compose. }
    assert (Hpg : qnorm2 RA (qmul p g) = 1) by (rewrite qmul_norm, Hp, Hg; ring).
    rewrite E in Hc' |- *.
    rewrite (proj2 (fit_exact_image defs (qmul p g) (rigid (q2mat RA g) S T) atom Hpg Hnc Hc')).
    f_equal. symmetry. apply rigid_compose.
Qed.

(* non-vacuity: a concrete exact-image problem meeting every hypothesis, and one
   qchichange call evaluated *)

Definition ex_defs : list Rpt := [(0, 0, 0); (1, 0, 0); (0, 1, 0); (0, 0, 2)].
Definition ex_p : Rquat := (1 / 2, 1 / 2, 1 / 2, 1 / 2).
Definition ex_T : Rpt := (10, -20, 30).

Lemma fit_nonvacuous :
  qnorm2 RA ex_p = 1 /\ noncollinear ex_defs /\
  (exists q, eigen_contract (snd (center RA ex_defs))
               (snd (center RA (map (rigid (q2mat RA ex_p) ex_T) ex_defs))) q) /\
  rigid (q2mat RA ex_p) ex_T (1, 2, 3) = (12, -17, 31) /\
  (let c := 3 / 5 in let s := 4 / 5 in let init : Rpt := (0, 0, 2) in
   c * c + s * s = 1 /\ dot3 RA init init <> 0 /\
   qchichange RA c s init ((1, 0, 5) :: nil) = ((3 / 5, 4 / 5, 5) :: nil)).
Proof.
  assert (Hp : qnorm2 RA ex_p = 1) by (unfold ex_p; unf; field).
  split; [ exact Hp | ].
  split.
  { exists (0, 0, 0), (1, 0, 0), (0, 1, 0). unfold ex_defs. cbn [In].
    repeat split; auto. unf. intro H. apply pt_inv in H. lra. }
  split.
  { exists ex_p. apply eigen_contract_satisfiable; exact Hp. }
  split.
  { unfold rigid, ex_p, ex_T. unf. apply pt_eq; field. }
  cbv zeta. split; [ field | ]. split; [ unf; lra | ].
  rewrite qchichange_map. cbn [map]. unfold chi_map, normalize, norm3, normalize_with. cbn [a_sqrt RArith].
  assert (E : sqrt (dot3 RA (0, 0, 2) (0, 0, 2)) = 2).
  { replace (dot3 RA (0, 0, 2) (0, 0, 2)) with (2 * 2) by (unf; ring). apply sqrt_square. lra. }
  rewrite E. unf. f_equal. apply pt_eq; field.
Qed.
