(* E2E_Clean - `pdb2pqr --clean [--drop-water] [--keep-chain] [--whitespace] in.pdb out.pqr`
   end to end, as the composition of the C07 model (read_pdb ; drop_water ;
   Biomolecule.__init__), set_termini, and the C08 model (get_pqr_string ;
   print_biomolecule_atoms ; print_pqr); nothing of C07 / C08 is re-proved.

   The full statement - every coordinate record of the first model is in the output
   exactly once with its chain, resSeq, iCode and coordinates - is REFUTED by the
   faithful model: set_termini, which main_driver runs before the --clean branch,
   applies the 5TERM patch, which removes the 5' phosphate (P, O1P, O2P) of the first
   nucleotide of every chain; it also renames terminal atoms (H1 -> H, OT1 -> O ...),
   gives the residues in front of an internal OXT / H3T a new chain id and letters a
   blank chain.  What is proved for ALL inputs is the statement under the decidable
   guard termini_quiet (_partial).  The theorems state a Permutation; the order of the
   written file is checked by the harness, not proved. *)
From Coq Require Import String List ZArith NArith Bool Permutation.
From PV Require Import Lib.Strings Lib.Decimal Model.PdbRead Model.Group Model.PdbSpec Model.CleanRun
  Proofs.CleanRun.
From PV Require Model.PqrFormat Proofs.PqrFormat.
Import ListNotations.
Local Open Scope string_scope.

Module MP := PV.Model.PqrFormat.
Module PP := PV.Proofs.PqrFormat.

(* default layout: reading the written file back by the writer's columns yields,
   as a multiset, exactly the chain / resSeq / iCode / coordinates (to 0.001) of
   the records C07's column read selects from the input - nothing lost, nothing
   twice, nothing from a later model, no water dropped *)
Theorem E2E_clean_run_faithful_partial :
  forall (fok : string -> bool) (tab : deftab) (pt : ptab) (near : atomrec -> atomrec -> bool)
         (r3 : string -> MP.fx) (keep : bool) (lines : list string),
  e2e_guard fok tab pt near r3 (MP.fixed_ok keep) lines = true ->
  exists its,
    clean_items fok tab pt near r3 false keep lines = Some its /\
    clean_run fok tab pt near r3 false keep false lines = Some (map MP.item_text its) /\
    Permutation (map out_crec (map MP.read_fixed (PP.atom_lines its)))
                (map (in_crec r3 keep) (cols_read lines)).
Proof. exact clean_run_faithful_partial. Qed.

(* and record type, atom name, residue name, when the residue classes left them as
   the columns have them (canon_guard: no ATOM<->HETATM normalisation, no alias
   renaming, no RNA residue renaming in this file) *)
Theorem E2E_clean_run_names_partial :
  forall (fok : string -> bool) (tab : deftab) (pt : ptab) (near : atomrec -> atomrec -> bool)
         (r3 : string -> MP.fx) (keep : bool) (lines : list string),
  e2e_guard fok tab pt near r3 (MP.fixed_ok keep) lines = true ->
  canon_guard fok tab lines = true ->
  exists its,
    clean_items fok tab pt near r3 false keep lines = Some its /\
    Permutation (map (fun f => (out_crec f, out_nrec f)) (map MP.read_fixed (PP.atom_lines its)))
                (map (fun l => (in_crec r3 keep l, in_nrec (strip l))) (cols_read lines)).
Proof. exact clean_run_names_partial. Qed.

(* --drop-water: the same statement about the input without its water lines
   (through C07_drop_water_iff; G1 on the whole file, the guard on the rest) *)
Theorem E2E_clean_run_drop_water_partial :
  forall (fok : string -> bool) (tab : deftab) (pt : ptab) (near : atomrec -> atomrec -> bool)
         (r3 : string -> MP.fx) (keep : bool) (lines : list string),
  forallb (g_line fok) lines = true ->
  e2e_guard fok tab pt near r3 (MP.fixed_ok keep) (no_water lines) = true ->
  exists its,
    clean_run fok tab pt near r3 true keep false lines = Some (map MP.item_text its) /\
    Permutation (map out_crec (map MP.read_fixed (PP.atom_lines its)))
                (map (in_crec r3 keep) (cols_read (no_water lines))).
Proof. exact clean_run_drop_water_partial. Qed.

(* --whitespace: pdb2pqr's own reader (io.read_pqr / Atom.from_pqr_line) on the
   written file returns the records (through C08_ws_file_roundtrip_partial) *)
Theorem E2E_clean_run_whitespace_partial :
  forall (fok : string -> bool) (tab : deftab) (pt : ptab) (near : atomrec -> atomrec -> bool)
         (r3 : string -> MP.fx) (keep : bool) (lines : list string),
  e2e_guard fok tab pt near r3 (MP.ws_ok keep) lines = true ->
  exists out ps,
    clean_run fok tab pt near r3 false keep true lines = Some out /\
    MP.read_pqr out = inl ps /\
    Permutation (map ws_crec ps) (map (in_crec r3 keep) (cols_read lines)).
Proof. exact clean_run_whitespace_partial. Qed.

(* ALL inputs, any flags, no guard: the default-layout file is the atom lines of
   Biomolecule.atoms in order, serial = position, TER between chains, "TER\nEND" last *)
Theorem E2E_clean_file_shape :
  forall (fok : string -> bool) (tab : deftab) (pt : ptab) (near : atomrec -> atomrec -> bool)
         (r3 : string -> MP.fx) (dropw keep : bool) (lines : list string) (atoms : list atomrec),
  clean_atoms fok tab pt near dropw lines = Some atoms ->
  clean_run fok tab pt near r3 dropw keep false lines =
    Some (map MP.item_text (MP.print_items keep (map (conv r3) atoms))) /\
  PP.atom_lines (MP.print_items keep (map (conv r3) atoms)) = PP.numbered keep 0 (map (conv r3) atoms).
Proof. exact clean_file_shape. Qed.

(* the full statement is refuted: a file inside C07's guard with 4 coordinate
   records whose output has 3 atom lines; the written file is given in full, the
   P record of residue 1 is not in it.  (That the atoms are within the column
   capacities and that termini_quiet fails on this file are not conjuncts.) *)
Theorem E2E_clean_run_faithful_refuted :
  guard py_float_ok etab ex_5prime = true /\
  List.length (cols_read ex_5prime) = 4 /\
  clean_file py_float_ok etab ept near_dec er3 false true false ex_5prime = Some ex_5prime_out /\
  (exists its, clean_items py_float_ok etab ept near_dec er3 false true ex_5prime = Some its /\
     List.length (PP.atom_lines its) = 3 /\
     ~ Permutation (map out_crec (map MP.read_fixed (PP.atom_lines its)))
                   (map (in_crec er3 true) (cols_read ex_5prime))).
Proof. exact five_prime_refuted. Qed.

(* with --keep-chain the chain id is not always the input's (hidden chain): the
   input has chain B on all three lines, the written file has chain A on residue 1,
   the residue that ends with an internal OXT *)
Theorem E2E_hidden_chain_refuted :
  guard py_float_ok etab ex_hidden = true /\
  clean_file py_float_ok etab ept near_dec er3 false true false ex_hidden = Some ex_hidden_out.
Proof. exact hidden_chain_refuted. Qed.

(* non-vacuity: an 18-line file (header, two models, alt-locs, blank line, short
   line, negative resSeq with insertion code, TER, two chains, ligand, waters)
   meets every guard; 8 records selected, 6 without the waters; the exact files *)
Example E2E_nonvacuous :
  e2e_guard py_float_ok etab ept near_dec er3 (MP.fixed_ok true) ex_clean = true /\
  e2e_guard py_float_ok etab ept near_dec er3 (MP.ws_ok true) ex_clean = true /\
  canon_guard py_float_ok etab ex_clean = true /\
  forallb (g_line py_float_ok) ex_clean = true /\
  e2e_guard py_float_ok etab ept near_dec er3 (MP.fixed_ok true) (no_water ex_clean) = true /\
  List.length (cols_read ex_clean) = 8 /\
  List.length (cols_read (no_water ex_clean)) = 6 /\
  clean_file py_float_ok etab ept near_dec er3 false true false ex_clean = Some ex_clean_out /\
  clean_file py_float_ok etab ept near_dec er3 true true false ex_clean = Some ex_clean_out_dropw.
Proof. exact ex_clean_ok. Qed.

Print Assumptions E2E_clean_run_faithful_partial.
Print Assumptions E2E_clean_run_names_partial.
Print Assumptions E2E_clean_run_drop_water_partial.
Print Assumptions E2E_clean_run_whitespace_partial.
Print Assumptions E2E_clean_file_shape.
Print Assumptions E2E_clean_run_faithful_refuted.
Print Assumptions E2E_hidden_chain_refuted.
Print Assumptions E2E_nonvacuous.
