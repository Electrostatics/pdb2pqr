(* Proofs for the moveable-set model (C04, C05): if the boolean graph
   conditions hold, moving exactly the set M by ANY isometry that fixes the two
   axis atoms preserves every bond length and every bond angle (all three
   pairwise distances of every bonded triple) among the atoms of interest. *)
From Coq Require Import List PArith Bool Arith.
From PV Require Import Lib.Lists Model.ForceField Model.Topology Model.Moves.
Import ListNotations.

Lemma mem_In a l : mem a l = true <-> In a l.
Proof. exact (existsb_eqb_In Pos.eqb Pos.eqb_eq a l). Qed.

Lemma nbrs_nonempty_node g v u : In u (nbrs g v) -> In v (nodes g).
Proof.
  unfold nbrs, nodes. destruct (find (fun p => Pos.eqb (fst p) v) g) as [p|] eqn:E; [|intros []].
  intros _. apply find_some in E as [E1 E2]. apply Pos.eqb_eq in E2. subst v.
  apply in_map. exact E1.
Qed.

Lemma cond_closed_use keep g c M : cond_closed keep g c M = true ->
  forall u v, In v (nbrs g u) -> keep u = true -> keep v = true ->
  inM M u = true -> inM M v = true \/ v = c.
Proof.
  unfold cond_closed. rewrite forallb_forall. intros H u v Hv Ku Kv Mu.
  specialize (H u (nbrs_nonempty_node g u v Hv)). rewrite Ku, Mu in H. cbn [negb orb] in H.
  rewrite forallb_forall in H. specialize (H v Hv). rewrite Kv in H. cbn [negb orb] in H.
  apply orb_true_iff in H as [H | H]; [left; exact H | right; now apply Pos.eqb_eq in H].
Qed.

Lemma cond_pivot_use keep g b c M : cond_pivot keep g b c M = true ->
  forall v, In v (nbrs g c) -> keep v = true -> inM M v = true \/ v = b.
Proof.
  unfold cond_pivot. rewrite forallb_forall. intros H v Hv Kv.
  specialize (H v Hv). rewrite Kv in H. cbn [negb orb] in H.
  apply orb_true_iff in H as [H | H]; [left; exact H | right; now apply Pos.eqb_eq in H].
Qed.

Lemma cond_sym_use g : cond_sym g = true ->
  forall u v, In v (nbrs g u) -> In u (nbrs g v).
Proof.
  unfold cond_sym. rewrite forallb_forall. intros H u v Hv.
  specialize (H u (nbrs_nonempty_node g u v Hv)). rewrite forallb_forall in H. now apply mem_In, H.
Qed.

Lemma rigid_ok_conds keep g b c M : rigid_ok keep g b c M = true ->
  cond_closed keep g c M = true /\ cond_pivot keep g b c M = true /\
  cond_axis b c M = true /\ cond_sym g = true.
Proof. unfold rigid_ok. rewrite !andb_true_iff. tauto. Qed.

Definition star (g : graph) (v x : id) : Prop := x = v \/ In x (nbrs g v).

Lemma star_bonds_angles (keep : id -> bool) g (Q : id -> id -> Prop) :
  (forall v u w, keep v = true -> star g v u -> star g v w -> keep u = true -> keep w = true -> Q u w) ->
  (forall u v, In v (nbrs g u) -> keep u = true -> keep v = true -> Q u v) /\
  (forall u v w, In u (nbrs g v) -> In w (nbrs g v) -> keep u = true -> keep v = true -> keep w = true -> Q u w).
Proof.
  intros H. split.
  - intros u v Hv Ku Kv. apply (H u); [| left | right |..]; auto.
  - intros u v w Hu Hw Ku Kv Kw. apply (H v); [| right | right |..]; auto.
Qed.

Section Rigid.
  Variables P D : Type.
  Variable dist : P -> P -> D.
  Variable Rt : P -> P.                        (* the motion applied to the moved set *)
  Hypothesis Rt_iso : forall x y, dist (Rt x) (Rt y) = dist x y.

  Variable keep : id -> bool.
  Variable g : graph.
  Variables b c : id.
  Variable M : list id.
  Variable pos : id -> P.
  Hypothesis fix_b : Rt (pos b) = pos b.        (* the axis atoms are fixed points *)
  Hypothesis fix_c : Rt (pos c) = pos c.
  Hypothesis ok : rigid_ok keep g b c M = true.

  Definition pos' (a : id) : P := if inM M a then Rt (pos a) else pos a.

  (* atoms that follow Rt: the moved set and the two axis atoms *)
  Definition inT (a : id) : Prop := inM M a = true \/ a = b \/ a = c.

  Lemma pos'_T a : inT a -> pos' a = Rt (pos a).
  Proof.
    unfold pos'. intros [H | [-> | ->]].
    - now rewrite H.
    - destruct (inM M b); [reflexivity | now rewrite fix_b].
    - destruct (inM M c); [reflexivity | now rewrite fix_c].
  Qed.

  Lemma c_not_moved : inM M c = false.
  Proof.
    destruct (rigid_ok_conds keep g b c M ok) as (_ & _ & Haxis & _).
    unfold cond_axis in Haxis. apply andb_true_iff in Haxis as [_ H]. now apply negb_true_iff in H.
  Qed.

  (* The idea of the whole file: the atoms of interest in the star of a node all follow Rt
     or all stay.  A moved centre has moved or pivot neighbours (closed); the pivot has moved
     neighbours or the axis partner; any other centre has no moved neighbour, since that
     neighbour's bonds (listed from its side too: sym) would end in M or at the pivot. *)
  Lemma star_one_side v : keep v = true ->
    (forall x, star g v x -> keep x = true -> inT x) \/
    (forall x, star g v x -> keep x = true -> inM M x = false).
  Proof.
    intros Kv. destruct (rigid_ok_conds keep g b c M ok) as (Hclosed & Hpivot & _ & Hsym).
    destruct (inM M v) eqn:Mv; [|destruct (Pos.eq_dec v c) as [-> | Hvc]].
    - left. intros x [-> | Hx] Kx; [left; exact Mv|].
      destruct (cond_closed_use keep g c M Hclosed v x Hx Kv Kx Mv) as [H | ->]; [left; exact H | right; right; reflexivity].
    - left. intros x [-> | Hx] Kx; [right; right; reflexivity|].
      destruct (cond_pivot_use keep g b c M Hpivot x Hx Kx) as [H | ->]; [left; exact H | right; left; reflexivity].
    - right. intros x [-> | Hx] Kx; [exact Mv|].
      destruct (inM M x) eqn:Mx; [exfalso | reflexivity].
      destruct (cond_closed_use keep g c M Hclosed x v (cond_sym_use g Hsym v x Hx) Kx Kv Mx) as [H | H];
        [rewrite H in Mv; discriminate | exact (Hvc H)].
  Qed.

  Lemma star_preserved v u w : keep v = true ->
    star g v u -> star g v w -> keep u = true -> keep w = true ->
    dist (pos' u) (pos' w) = dist (pos u) (pos w).
  Proof.
    intros Kv Hu Hw Ku Kw. destruct (star_one_side v Kv) as [H | H].
    - rewrite !pos'_T by auto. apply Rt_iso.
    - unfold pos'. rewrite !H by auto. reflexivity.
  Qed.

  Theorem bond_preserved u v :
    In u (nodes g) -> In v (nbrs g u) -> keep u = true -> keep v = true ->
    dist (pos' u) (pos' v) = dist (pos u) (pos v).
  Proof. intros _. exact (proj1 (star_bonds_angles keep g _ star_preserved) u v). Qed.

  (* every bond angle u - v - w is preserved: the third side of the triangle
     keeps its length too *)
  Theorem angle_preserved u v w :
    In v (nodes g) -> In u (nbrs g v) -> In w (nbrs g v) ->
    keep u = true -> keep v = true -> keep w = true ->
    dist (pos' u) (pos' w) = dist (pos u) (pos w).
  Proof. intros _. exact (proj2 (star_bonds_angles keep g _ star_preserved) u v w). Qed.

  Theorem frame a : inM M a = false -> pos' a = pos a.
  Proof. unfold pos'. now intros ->. Qed.
End Rigid.
