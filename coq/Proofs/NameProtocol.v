(* C03 - proofs about Model/NameProtocol.v.

   Everything said about a protocol has the shape [ensures P o]: the outcome [o] is never
   Error and, unless the label was not enabled, its state satisfies [P].  The statement
   vocabulary [run_ok], [proto_ok] (and what Properties/C03.v shows) is [ensures] written out
   as matches.  One induction (Section Invariant) turns a predicate kept by every step into
   a statement about every run; it is used with "is in the checked set" for the table
   instances (reachable-set certificates) and with invariants on the name list for the
   parametric theorems. *)
From Coq Require Import String List Bool Arith Lia Permutation.
From PV Require Import Lib.Lists Lib.Strings Model.NameProtocol.
From PV Require Import Model.ForceField Proofs.ForceField.
Import ListNotations.

Lemma mem_In : forall x l, mem x l = true <-> In x l.
Proof.
  unfold mem. induction l as [|y l IH]; cbn.
  - split; [discriminate | tauto].
  - rewrite orb_true_iff, IH, String.eqb_eq. split; intros [H|H]; auto.
Qed.

Lemma mem_false : forall x (l : nl), mem x l = false <-> ~ In x l.
Proof. intros. rewrite <- mem_In. destruct (mem x l); split; congruence. Qed.

Lemma mem_ext : forall (a b : nl), (forall x, In x a <-> In x b) -> forall x, mem x a = mem x b.
Proof. intros a b H x. apply eq_iff_eq_true. rewrite !mem_In. apply H. Qed.

Lemma has_In : forall n w, has n w = true <-> In n (w_names w).
Proof. intros. apply mem_In. Qed.

Lemma has_false : forall n w, has n w = false <-> ~ In n (w_names w).
Proof. intros. apply mem_false. Qed.

Lemma nodupb_NoDup : forall l, nodupb l = true <-> NoDup l.
Proof.
  induction l as [|x l IH]; cbn.
  - split; [constructor | reflexivity].
  - rewrite andb_true_iff, negb_true_iff, mem_false, IH. split.
    + intros [H1 H2]. constructor; auto.
    + intros H. inversion H; auto.
Qed.

Lemma nl_eqb_eq : forall a b, nl_eqb a b = true -> a = b.
Proof.
  induction a as [|x a IH]; destruct b as [|y b]; cbn; intros H; try discriminate; auto.
  apply andb_true_iff in H. destruct H as [H1 H2].
  apply String.eqb_eq in H1. subst. f_equal. auto.
Qed.

Lemma pst_eqb_eq : forall a b, pst_eqb a b = true -> a = b.
Proof.
  intros [n1 f1 h1 a1] [n2 f2 h2 a2]. unfold pst_eqb. cbn. rewrite !andb_true_iff.
  intros [[[Hn Hf] Hh] Ha].
  apply nl_eqb_eq in Hn, Hh, Ha. apply Bool.eqb_prop in Hf. subst. reflexivity.
Qed.

Lemma memP_In : forall s l, memP s l = true -> In s l.
Proof.
  unfold memP. intros s l H. apply existsb_exists in H. destruct H as [x [Hx He]].
  apply pst_eqb_eq in He. subst. exact Hx.
Qed.

Lemma remove_first_incl : forall x l y, In y (remove_first x l) -> In y l.
Proof.
  induction l as [|z l IH]; cbn; intros y H; [exact H|].
  destruct (String.eqb x z); [auto|]. destruct H as [->|H]; auto.
Qed.

Lemma remove_first_keeps : forall x l y, In y l -> y <> x -> In y (remove_first x l).
Proof.
  induction l as [|z l IH]; cbn; intros y H Hne; [exact H|].
  destruct (String.eqb_spec x z) as [->|_]; destruct H as [->|H]; cbn; auto. congruence.
Qed.

Lemma In_remove_first : forall x l y, NoDup l -> (In y (remove_first x l) <-> In y l /\ y <> x).
Proof.
  intros x l y Hn. split; [|intros [H Hne]; apply remove_first_keeps; assumption].
  intros H. split; [exact (remove_first_incl x l y H)|]. intros ->. revert H.
  induction Hn as [|z l Hz _ IH]; cbn; [auto|].
  destruct (String.eqb_spec x z) as [->|Hne]; [exact Hz|]. intros [E|H]; [congruence|auto].
Qed.

Lemma NoDup_remove_first : forall x l, NoDup l -> NoDup (remove_first x l).
Proof.
  induction l as [|z l IH]; cbn; intros Hn; auto.
  inversion Hn; subst. destruct (String.eqb x z); auto.
  constructor; auto. rewrite In_remove_first by auto. tauto.
Qed.

Lemma remove_first_notin : forall x l, ~ In x l -> remove_first x l = l.
Proof.
  induction l as [|z l IH]; cbn; intros H; auto.
  destruct (String.eqb_spec x z) as [->|_]; [tauto|]. f_equal. apply IH. tauto.
Qed.

Lemma remove_first_app_mid : forall a (k r : nl), ~ In a k -> remove_first a (k ++ a :: r) = (k ++ r)%list.
Proof.
  induction k as [|z k IH]; cbn; intros r H.
  - rewrite String.eqb_refl. reflexivity.
  - destruct (String.eqb_spec a z) as [->|_]; [tauto|]. f_equal. apply IH. tauto.
Qed.

Lemma remove_first_app_last : forall x l, ~ In x l -> remove_first x (l ++ [x]) = l.
Proof. intros x l H. rewrite remove_first_app_mid by auto. apply app_nil_r. Qed.

Lemma In_replace_first_sub : forall o n l y, In y (replace_first o n l) -> In y l \/ y = n.
Proof.
  induction l as [|z l IH]; cbn; intros y H; auto.
  destruct (String.eqb o z); destruct H as [<-|H]; auto. destruct (IH y H); auto.
Qed.

Lemma In_replace_first : forall o n l y, NoDup l -> In o l ->
  (In y (replace_first o n l) <-> (In y l /\ y <> o) \/ y = n).
Proof.
  induction l as [|z l IH]; cbn; intros y Hn Ho; [tauto|].
  inversion Hn as [|? ? Hz Hl]; subst. destruct (String.eqb o z) eqn:E.
  - apply String.eqb_eq in E. subst z. cbn. split.
    + intros [->|Hy]; auto. left. split; auto. intros ->. contradiction.
    + intros [[[->|Hy] Hne]| ->]; auto. congruence.
  - apply String.eqb_neq in E. destruct Ho as [->|Ho]; [congruence|]. cbn. rewrite IH by auto. split.
    + intros [->|[[Hy Hne]| ->]]; auto.
    + intros [[[->|Hy] Hne]| ->]; auto.
Qed.

Lemma NoDup_replace_first : forall o n l, NoDup l -> ~ In n l -> NoDup (replace_first o n l).
Proof.
  induction l as [|z l IH]; cbn; intros Hn Hnn; auto.
  inversion Hn as [|? ? Hz Hl]; subst. destruct (String.eqb o z).
  - constructor; auto.
  - constructor; [|apply IH; auto]. intros Hin. apply In_replace_first_sub in Hin. destruct Hin as [Hin| ->]; auto.
Qed.

Lemma cr_spec : forall n w, ~ In n (w_names w) ->
  exists w', cr n w = Some w' /\ w_names w' = (w_names w ++ [n])%list.
Proof. intros n w H. unfold cr. apply mem_false in H. rewrite H. eexists. split; reflexivity. Qed.

Lemma rm_spec : forall n w, In n (w_names w) ->
  exists w', rm n w = Some w' /\ w_names w' = remove_first n (w_names w).
Proof. intros n w H. unfold rm. apply mem_In in H. rewrite H. eexists. split; reflexivity. Qed.

Lemma rn_spec : forall o n w, In o (w_names w) -> ~ In n (w_names w) ->
  exists w', rn o n w = Some w' /\ w_names w' = replace_first o n (w_names w).
Proof.
  intros o n w Ho Hn. unfold rn. apply mem_In in Ho. apply mem_false in Hn.
  rewrite Ho, Hn. eexists. split; reflexivity.
Qed.

Definition ensures (P : pst -> Prop) (o : outcome) : Prop :=
  match o with Next s _ => P s | Disabled => True | Error => False end.

Lemma ensures_mono : forall (P Q : pst -> Prop) o, (forall s, P s -> Q s) -> ensures P o -> ensures Q o.
Proof. intros P Q [s ops| |] H; cbn; auto. Qed.

Lemma ensures_true : forall (p : pst -> bool) o,
  match o with Next s _ => p s | Disabled => true | Error => false end = true ->
  ensures (fun s => p s = true) o.
Proof. intros p [s ops| |] H; cbn; auto. discriminate. Qed.

Lemma ensures_fin : forall (P : pst -> Prop) s fx h a x,
  (exists w, x = Some w /\ P (mkP (w_names w) fx h a)) -> ensures P (fin s fx h a x).
Proof. intros P s fx h a x [w [-> H]]. exact H. Qed.

Section Invariant.
  Variables (L C : Type) (step : pst -> L -> outcome) (complete : pst -> C -> outcome).
  Variables Inv Q : pst -> Prop.
  Hypothesis step_inv : forall s l, Inv s -> ensures Inv (step s l).
  Hypothesis complete_inv : forall s c, Inv s -> ensures Q (complete s c).

  Lemma run_inv : forall ls s, Inv s -> ensures Inv (run L step s ls).
  Proof.
    induction ls as [|l ls IH]; intros s Hs; cbn [run]; [exact Hs|].
    pose proof (step_inv s l Hs) as H. destruct (step s l); cbn in H; [auto|exact I|contradiction].
  Qed.

  Theorem runs_complete : forall s0, Inv s0 ->
    forall ls, ensures (fun s => forall c, ensures Q (complete s c)) (run L step s0 ls).
  Proof.
    intros s0 H0 ls. apply (ensures_mono Inv); [|apply run_inv, H0].
    intros s Hs c. apply complete_inv, Hs.
  Qed.
End Invariant.

Lemma checked_ensures : forall (A : Type) (f : pst -> A -> outcome) (p : pst -> bool) (xs : list A) S,
  forallb (fun s => forallb (fun x => match f s x with
                                      | Next s' _ => p s'
                                      | Disabled => true
                                      | Error => false
                                      end) xs) S = true ->
  (forall s x, f s x <> Disabled -> In x xs) ->
  forall s x, In s S -> ensures (fun s' => p s' = true) (f s x).
Proof.
  intros A f p xs S H Hall s x Hs.
  assert (Hx : f s x = Disabled \/ In x xs).
  { destruct (f s x) eqn:E; [right|left; reflexivity|right]; apply (Hall s); rewrite E; discriminate. }
  destruct Hx as [-> | Hx]; [exact I|]. apply ensures_true.
  rewrite forallb_forall in H. specialize (H s Hs). rewrite forallb_forall in H. exact (H x Hx).
Qed.

Section Closure.
  Variables (L C : Type).
  Variable step : pst -> L -> outcome.
  Variable complete : pst -> C -> outcome.
  Variable labels : list L.
  Variable clabels : list C.
  Variable good : nl -> bool.
  Hypothesis labels_cover : forall s l, step s l <> Disabled -> In l labels.
  Hypothesis clabels_cover : forall s c, complete s c <> Disabled -> In c clabels.

  Variable S : list pst.
  Hypothesis Hclosed : closed L step labels S = true.
  Hypothesis Hgood : all_good C complete clabels good S = true.

  (* every run from a start state inside S: no Error on the way, and whatever
     oracle [complete] is given, it ends with good names *)
  Definition run_ok (s0 : pst) : Prop :=
    forall ls, match run L step s0 ls with
               | Next s _ => forall c, match complete s c with
                                       | Next s' _ => good (names s') = true
                                       | Disabled => True
                                       | Error => False
                                       end
               | Disabled => True
               | Error => False
               end.

  Lemma run_ok_ensures : forall s0, run_ok s0 <->
    forall ls, ensures (fun s => forall c, ensures (fun s' => good (names s') = true) (complete s c)) (run L step s0 ls).
  Proof. reflexivity. Qed.

  Theorem certificate_sound : forall s0, memP s0 S = true -> run_ok s0.
  Proof.
    intros s0 H0. apply run_ok_ensures.
    refine (runs_complete L C step complete (fun s => In s S) (fun s' => good (names s') = true) _ _ s0 (memP_In _ _ H0)).
    - intros s l Hs. apply (ensures_mono (fun s' => memP s' S = true)); [intros s'; apply memP_In|].
      exact (checked_ensures L step _ labels S Hclosed labels_cover s l Hs).
    - intros s c Hs. exact (checked_ensures C complete _ clabels S Hgood clabels_cover s c Hs).
  Qed.
End Closure.

Definition final_ok (expected l : nl) : Prop :=
  NoDup l /\ (forall x, In x l <-> In x expected) /\ (forall x, In x l -> placeholder x = false).

Lemma good_names_spec : forall e l, good_names e l = true -> final_ok e l.
Proof.
  intros e l H. unfold good_names in H. rewrite !andb_true_iff in H. destruct H as [[[H1 H2] H3] H4].
  rewrite forallb_forall in H2, H3. split; [apply nodupb_NoDup; exact H1|]. split.
  - intros x; split; intros Hx; apply mem_In; auto.
  - apply forallb_negb, H4.
Qed.

Lemma final_ok_set : forall e l, NoDup l -> (forall x, In x l <-> In x e) ->
  (forall x, In x e -> placeholder x = false) -> final_ok e l.
Proof. intros e l Hn Hs Hp. split; [exact Hn|]. split; [exact Hs|]. intros x Hx. apply Hp, Hs, Hx. Qed.

(* what a passed instance check means, for each protocol *)
Definition proto_ok (L C : Type) (step : pst -> L -> outcome) (complete : pst -> C -> outcome)
                    (expected : nl) (st : outcome) : Prop :=
  match st with
  | Error => False
  | Disabled => True
  | Next s0 _ =>
      forall ls, match run L step s0 ls with
                 | Next s _ => forall c, match complete s c with
                                         | Next s' _ => final_ok expected (names s')
                                         | Disabled => True
                                         | Error => False
                                         end
                 | Disabled => True
                 | Error => False
                 end
  end.

Lemma proto_ok_ensures : forall (L C : Type) step complete e st,
  proto_ok L C step complete e st <->
  ensures (fun s0 => forall ls,
             ensures (fun s => forall c, ensures (fun s' => final_ok e (names s')) (complete s c)) (run L step s0 ls)) st.
Proof. reflexivity. Qed.

Theorem proto_ok_invariant : forall (L C : Type) step complete (Inv : pst -> Prop) e st,
  (forall s l, Inv s -> ensures Inv (step s l)) ->
  (forall s c, Inv s -> ensures (fun s' => final_ok e (names s')) (complete s c)) ->
  ensures Inv st -> proto_ok L C step complete e st.
Proof.
  intros L C step complete Inv e st Hs Hc H0. apply proto_ok_ensures. refine (ensures_mono Inv _ st _ H0).
  exact (runs_complete L C step complete Inv _ Hs Hc).
Qed.

Lemma run_ok_proto_ok : forall (L C : Type) step complete e st,
  ensures (run_ok L C step complete (good_names e)) st -> proto_ok L C step complete e st.
Proof.
  intros L C step complete e st H. apply proto_ok_ensures. refine (ensures_mono _ _ _ _ H). intros s0 H0 ls.
  refine (ensures_mono _ _ _ _ (proj1 (run_ok_ensures L C step complete _ s0) H0 ls)). intros s Hs c.
  refine (ensures_mono _ _ _ _ (Hs c)). intros s'. apply good_names_spec.
Qed.

(* [S s0] is the set [check_from] explored from s0 *)
Lemma certificate_proto_ok : forall (L C : Type) step complete labels clabels e (S : pst -> list pst) st,
  (forall s l, step s l <> Disabled -> In l labels) ->
  (forall s c, complete s c <> Disabled -> In c clabels) ->
  ensures (fun s0 => memP s0 (S s0) && closed L step labels (S s0) &&
                     all_good C complete clabels (good_names e) (S s0) = true) st ->
  proto_ok L C step complete e st.
Proof.
  intros L C step complete labels clabels e S st Hl Hc H. apply run_ok_proto_ok.
  refine (ensures_mono _ _ _ _ H). intros s0 H0. rewrite !andb_true_iff in H0. destruct H0 as [[H0 Hcl] Hg].
  exact (certificate_sound L C step complete labels clabels _ Hl Hc (S s0) Hcl Hg s0 H0).
Qed.

Lemma instance_starts_ok : forall l i o, all_instances_ok l = true -> In i l -> In o (starts i) ->
  check_from i o = true.
Proof.
  intros l i o H Hi Ho. unfold all_instances_ok in H. rewrite forallb_forall in H.
  specialize (H i Hi). unfold check_instance in H. rewrite forallb_forall in H. apply H, Ho.
Qed.

(* so that "every run" of the certificate really is every run *)
Lemma clabels_all : forall c s l, carb_step c s l <> Disabled -> In l (clabels_of c).
Proof.
  intros c s [f|d|b] H; unfold clabels_of.
  - apply in_or_app. left. destruct f; cbn; auto.
  - apply in_or_app. right. apply in_or_app. left. apply in_map.
    unfold carb_step in H. destruct (mem d (carb_cands c)) eqn:E; [apply mem_In; exact E | exfalso; apply H; reflexivity].
  - apply in_or_app. right. apply in_or_app. right.
    unfold carb_step, best_ok in H. destruct b as [x|].
    + right. apply (in_map (fun x => CFinalize (Some x))).
      destruct (mem x (carb_cands c)) eqn:E; [apply mem_In; exact E | exfalso; apply H; reflexivity].
    + left. reflexivity.
Qed.

Lemma cbest_all : forall c s b, carb_complete c s b <> Disabled -> In b (cbest c).
Proof.
  intros c s b H. unfold cbest. destruct b as [x|]; [right|left; reflexivity].
  apply in_map. unfold carb_complete, best_ok in H.
  destruct (mem x (carb_cands c)) eqn:E; [apply mem_In; exact E|]. exfalso. apply H. reflexivity.
Qed.

Theorem carb_instance_sound : forall i c o, i_kind i = KCarb c -> check_from i o = true ->
  proto_ok _ _ (carb_step c) (carb_complete c) (i_expected i) o.
Proof.
  intros i c o Hk H. unfold check_from in H. rewrite Hk in H. apply ensures_true in H.
  exact (certificate_proto_ok _ _ _ _ _ _ _ _ o (clabels_all c) (cbest_all c) H).
Qed.

Theorem carb_table_sound : forall l i c ord lf, all_instances_ok l = true -> In i l -> i_kind i = KCarb c ->
  proto_ok _ _ (carb_step c) (carb_complete c) (i_expected i) (carb_start c ord lf (i_base i)).
Proof.
  intros l i c ord lf H Hi Hk.
  assert (Hs : forall o, In o (starts i) -> proto_ok _ _ (carb_step c) (carb_complete c) (i_expected i) o).
  { intros o Ho. apply carb_instance_sound; auto. apply (instance_starts_ok l); auto. }
  unfold starts in Hs. rewrite Hk in Hs.
  destruct ord, lf; [apply Hs|exact I|apply Hs|apply Hs]; cbn; auto.
Qed.

(* a residue with no hydrogen-bond partner is only finalized; if that fixes it
   (so that it is never completed) its names are already final *)
Lemma nohb_sound : forall (L : Type) (step : pst -> L -> outcome) e fl s0 l,
  nohb_good L step (good_names e) fl s0 = true -> In l fl ->
  ensures (fun s' => fixed s' = true -> final_ok e (names s')) (step s0 l).
Proof.
  intros L step e fl s0 l H Hin. unfold nohb_good in H. rewrite forallb_forall in H.
  specialize (H l Hin). apply ensures_true in H. refine (ensures_mono _ _ _ _ H).
  intros s' Hs Hf. rewrite Hf in Hs. apply good_names_spec, Hs.
Qed.

Theorem flip_nohb_sound : forall l i mv, all_instances_ok l = true -> In i l -> i_kind i = KFlip mv ->
  match flip_start (i_base i) mv with
  | Next s0 _ => ensures (fun s' => fixed s' = true -> final_ok (i_expected i) (names s')) (flip_step mv s0 FFinalize)
  | _ => True
  end.
Proof.
  intros l i mv H Hi Hk.
  assert (Hc : check_from i (flip_start (i_base i) mv) = true).
  { apply (instance_starts_ok l); auto. unfold starts. rewrite Hk. left. reflexivity. }
  destruct (flip_start (i_base i) mv) as [s0 o| |]; auto.
  unfold check_from in Hc. rewrite Hk in Hc. apply andb_true_iff in Hc.
  apply (nohb_sound _ _ _ _ _ FFinalize (proj2 Hc)). left. reflexivity.
Qed.

Theorem wat_nohb_sound : forall l i, all_instances_ok l = true -> In i l -> i_kind i = KWat ->
  match wat_start (i_base i) with
  | Next s0 _ => ensures (fun s' => fixed s' = true -> final_ok (i_expected i) (names s')) (wat_step s0 WFinalize)
  | _ => True
  end.
Proof.
  intros l i H Hi Hk.
  assert (Hc : check_from i (wat_start (i_base i)) = true).
  { apply (instance_starts_ok l); auto. unfold starts. rewrite Hk. left. reflexivity. }
  unfold wat_start, check_from in *. rewrite Hk in Hc. apply andb_true_iff in Hc.
  apply (nohb_sound _ _ _ _ _ WFinalize (proj2 Hc)). left. reflexivity.
Qed.

Lemma tri_all : forall t, In t tris.
Proof. destruct t; cbn; auto. Qed.

Lemma flabels_all : forall mv s l, flip_step mv s l <> Disabled -> In l (flabels mv).
Proof.
  intros mv s [bn|] H; unfold flabels; apply in_or_app.
  - left. apply in_map. unfold flip_step in H.
    destruct (mem bn (flip_cands mv)) eqn:E.
    + apply mem_In. exact E.
    + exfalso. apply H. reflexivity.
  - right. cbn. auto.
Qed.

Lemma alabels_all : forall l, In l alabels.
Proof. intros [t|t|]; unfold alabels; rewrite !in_app_iff, !in_map_iff; [left|right; left|right; right; left]; eauto using tri_all. Qed.

Lemma wlabels_all : forall l, In l wlabels.
Proof. intros [t|t|]; unfold wlabels; rewrite !in_app_iff, !in_map_iff; [left|right; left|right; right; left]; eauto using tri_all. Qed.

Lemma unit_all : forall (u : unit), In u [tt].
Proof. destruct u; cbn; auto. Qed.

Theorem flip_instance_sound : forall i mv o, i_kind i = KFlip mv -> check_from i o = true ->
  proto_ok _ _ (flip_step mv) flip_complete (i_expected i) o.
Proof.
  intros i mv o Hk H. unfold check_from in H. rewrite Hk in H. apply ensures_true in H.
  refine (certificate_proto_ok _ _ _ _ _ _ _ _ o (flabels_all mv) (fun _ c _ => unit_all c) _).
  refine (ensures_mono _ _ _ _ H). intros s0 H0. apply andb_true_iff in H0. exact (proj1 H0).
Qed.

Theorem alc_instance_sound : forall i h o, i_kind i = KAlc h -> check_from i o = true ->
  proto_ok _ _ (alc_step h) (alc_complete h) (i_expected i) o.
Proof.
  intros i h o Hk H. unfold check_from in H. rewrite Hk in H. apply ensures_true in H.
  refine (certificate_proto_ok _ _ _ _ _ _ _ _ o (fun _ l _ => alabels_all l) (fun _ c _ => unit_all c) _).
  refine (ensures_mono _ _ _ _ H). intros s0 H0. apply andb_true_iff in H0. exact (proj1 H0).
Qed.

Theorem wat_instance_sound : forall i o, i_kind i = KWat -> check_from i o = true ->
  proto_ok _ _ wat_step wat_complete (i_expected i) o.
Proof.
  intros i o Hk H. unfold check_from in H. rewrite Hk in H. apply ensures_true in H.
  refine (certificate_proto_ok _ _ _ _ _ _ _ _ o (fun _ l _ => wlabels_all l) (fun _ c _ => unit_all c) _).
  refine (ensures_mono _ _ _ _ H). intros s0 H0. apply andb_true_iff in H0. exact (proj1 H0).
Qed.

Theorem flip_table_sound : forall l i mv, all_instances_ok l = true -> In i l -> i_kind i = KFlip mv ->
  proto_ok _ _ (flip_step mv) flip_complete (i_expected i) (flip_start (i_base i) mv).
Proof.
  intros l i mv H Hi Hk. apply flip_instance_sound; auto.
  apply (instance_starts_ok l); auto. unfold starts. rewrite Hk. left. reflexivity.
Qed.

Theorem alc_table_sound : forall l i h, all_instances_ok l = true -> In i l -> i_kind i = KAlc h ->
  proto_ok _ _ (alc_step h) (alc_complete h) (i_expected i) (alc_start h (i_base i)).
Proof.
  intros l i h H Hi Hk. apply alc_instance_sound; auto.
  apply (instance_starts_ok l); auto. unfold starts. rewrite Hk. left. reflexivity.
Qed.

Theorem wat_table_sound : forall l i, all_instances_ok l = true -> In i l -> i_kind i = KWat ->
  proto_ok _ _ wat_step wat_complete (i_expected i) (wat_start (i_base i)).
Proof.
  intros l i H Hi Hk. apply wat_instance_sound; auto.
  apply (instance_starts_ok l); auto. unfold starts. rewrite Hk. left. reflexivity.
Qed.

Lemma same_set_spec : forall a b, same_set a b = true -> NoDup a /\ forall x, In x a <-> In x b.
Proof.
  intros a b H. unfold same_set in H. rewrite !andb_true_iff in H. destruct H as [[H1 H2] H3].
  rewrite forallb_forall in H1, H2. split; [apply nodupb_NoDup; auto|].
  intros x; split; intros Hx; apply mem_In; auto.
Qed.

Theorem patch_table_sound : forall l p, patches_ok l = true -> In p l -> p_runtime p = true ->
  (p_key p = "5TERM"%string -> NoDup (heavy_removed p) /\ forall x, In x (heavy_removed p) <-> In x phosphate) /\
  (p_key p <> "5TERM"%string -> forall x, In x (p_remove p) -> is_hyd x = true).
Proof.
  intros l p H Hp Hr. unfold patches_ok in H. apply andb_true_iff in H. destruct H as [H _].
  rewrite forallb_forall in H. specialize (H p Hp). unfold patch_ok in H. rewrite Hr in H.
  split.
  - intros Hk. rewrite Hk in H. cbn in H. apply same_set_spec. exact H.
  - intros Hk x Hx. destruct (String.eqb_spec (p_key p) "5TERM") as [E|_]; [contradiction|].
    destruct (is_hyd x) eqn:Ex; auto.
    assert (Hin : In x (heavy_removed p)) by (unfold heavy_removed; apply filter_In; rewrite Ex; auto).
    destruct (heavy_removed p); [destruct Hin | discriminate].
Qed.

(* [todo] is a snapshot of the names, or the reference; each turn [g a] removes from the
   names what [D a] describes and adds what [A a] describes; [Pre] is what the rest of the
   loop may rely on *)
Lemma loop_spec : forall (g : string -> W -> option W) (D A : string -> string -> Prop) (Pre : nl -> W -> Prop),
  (forall a r w, Pre (a :: r) w ->
     exists w', g a w = Some w' /\ Pre r w' /\
                (forall y, In y (w_names w') <-> (In y (w_names w) /\ ~ D a y) \/ A a y)) ->
  (forall a r w, Pre (a :: r) w -> forall b y, In b r -> A a y -> ~ D b y) ->
  forall todo w, Pre todo w ->
  exists w', fold_left (fun acc a => acc >>= g a) todo (Some w) = Some w' /\ Pre [] w' /\
             forall y, In y (w_names w') <-> (In y (w_names w) /\ ~ exists a, In a todo /\ D a y) \/
                                             exists a, In a todo /\ A a y.
Proof.
  intros g D A Pre Hstep Hkeeps. induction todo as [|a r IH]; intros w Hp.
  - exists w. split; [reflexivity|]. split; [exact Hp|]. intros y. split.
    + intros H. left. split; [exact H|]. intros [a [[] _]].
    + intros [[H _]|[a [[] _]]]. exact H.
  - destruct (Hstep a r w Hp) as [w1 [E1 [P1 S1]]]. pose proof (Hkeeps a r w Hp) as Hkeep.
    destruct (IH w1 P1) as [w' [E' [P' S']]].
    exists w'. cbn [fold_left bind]. rewrite E1. split; [exact E'|]. split; [exact P'|].
    intros y. rewrite S', S1. split.
    + intros [[[[Hy Hd]|Ha] Hn]|[b [Hb Hab]]].
      * left. split; [exact Hy|]. intros [b [[<-|Hb] Hdb]]; [contradiction|]. apply Hn. exists b. auto.
      * right. exists a. split; [left; reflexivity|exact Ha].
      * right. exists b. split; [right; exact Hb|exact Hab].
    + intros [[Hy Hn]|[b [[<-|Hb] Hab]]].
      * left. split; [left; split; [exact Hy|]|].
        -- intros Hd. apply Hn. exists a. split; [left; reflexivity|exact Hd].
        -- intros [b [Hb Hdb]]. apply Hn. exists b. split; [right; exact Hb|exact Hdb].
      * left. split; [right; exact Hab|]. intros [c [Hc Hdc]]. exact (Hkeep c y Hc Hab Hdc).
      * right. exists b. auto.
Qed.

Lemma loop_removes : forall (g : string -> W -> option W) (D : string -> string -> Prop) (Pre : nl -> W -> Prop),
  (forall a r w, Pre (a :: r) w ->
     exists w', g a w = Some w' /\ Pre r w' /\ forall y, In y (w_names w') <-> In y (w_names w) /\ ~ D a y) ->
  forall todo w, Pre todo w ->
  exists w', fold_left (fun acc a => acc >>= g a) todo (Some w) = Some w' /\ Pre [] w' /\
             forall y, In y (w_names w') <-> In y (w_names w) /\ ~ exists a, In a todo /\ D a y.
Proof.
  intros g D Pre Hstep todo w Hp.
  destruct (loop_spec g D (fun _ _ => False) Pre) with (todo := todo) (w := w) as [w' [E' [P' S']]];
    [|intros a r w0 _ b y _ []|exact Hp|].
  - intros a r w0 H0. destruct (Hstep a r w0 H0) as [w1 [E1 [P1 S1]]]. exists w1. split; [exact E1|].
    split; [exact P1|]. intros y. rewrite S1. tauto.
  - exists w'. split; [exact E'|]. split; [exact P'|]. intros y. rewrite S'. split; [|tauto].
    intros [H|[a [_ []]]]. exact H.
Qed.

Lemma snapshot_pred : forall (p : string -> bool) (l : nl) y,
  In y l /\ ~ (exists a, In a l /\ p a = true /\ y = a) <-> In y l /\ p y = false.
Proof.
  intros p l y. split; intros [Hy H]; (split; [exact Hy|]).
  - destruct (p y) eqn:E; [|reflexivity]. exfalso. apply H. exists y. auto.
  - intros [a [_ [Ha ->]]]. congruence.
Qed.

(* the loop of remove_lps and of fix_flip false *)
Definition rm_pred (p : string -> bool) (todo : nl) (w : W) : option W :=
  fold_left (fun acc a => acc >>= fun w' => if p a then rm a w' else Some w') todo (Some w).

Lemma remove_lps_rm_pred : forall w, remove_lps w = rm_pred isLP (w_names w) w.
Proof. reflexivity. Qed.

Lemma fix_flip_false_rm_pred : forall w, fix_flip false w = rm_pred isF (w_names w) w.
Proof. reflexivity. Qed.

Lemma rm_pred_spec : forall p w, NoDup (w_names w) ->
  exists w', rm_pred p (w_names w) w = Some w' /\ NoDup (w_names w') /\
             forall y, In y (w_names w') <-> In y (w_names w) /\ p y = false.
Proof.
  intros p w Hn.
  destruct (loop_removes (fun a w' => if p a then rm a w' else Some w') (fun a y => p a = true /\ y = a)
              (fun r w' => NoDup (w_names w') /\ NoDup r /\ forall a, In a r -> p a = true -> In a (w_names w')))
    with (todo := w_names w) (w := w) as [w' [E' [[Nd' _] S']]].
  - intros a r w1 [Hn1 [Hnr Hin]]. inversion Hnr as [|? ? Ha Hr]; subst. destruct (p a) eqn:Ep.
    + destruct (rm_spec a w1) as [w2 [E2 N2]]; [apply Hin; [left; reflexivity|exact Ep]|].
      exists w2. split; [exact E2|]. rewrite N2. split; [split; [apply NoDup_remove_first, Hn1|split; [exact Hr|]]|].
      * intros b Hb Hpb. apply In_remove_first; auto. split; [apply Hin; [right; exact Hb|exact Hpb]|].
        intros ->. contradiction.
      * intros y. rewrite In_remove_first by auto. split; [intros [Hy Hne]; split; [exact Hy|tauto]|].
        intros [Hy Hne]. split; [exact Hy|]. intros ->. apply Hne. auto.
    + exists w1. split; [reflexivity|]. split; [split; [exact Hn1|split; [exact Hr|]]|].
      * intros b Hb. apply Hin. right. exact Hb.
      * intros y. split; [intros Hy; split; [exact Hy|]|tauto]. intros [Hc _]. discriminate.
  - split; [exact Hn|]. split; [exact Hn|auto].
  - exists w'. split; [exact E'|]. split; [exact Nd'|]. intros y. rewrite S'. apply snapshot_pred.
Qed.

Definition grows (T : string -> Prop) (l l' : nl) : Prop :=
  l' = l \/ exists n, T n /\ ~ In n l /\ l' = (l ++ [n])%list.

Lemma try_create_grows : forall (T : string -> Prop) t n w, T n -> ~ In n (w_names w) ->
  exists w', try_create t n w = Some w' /\ grows T (w_names w) (w_names w').
Proof.
  intros T t n w Ht Hn. destruct (cr_spec n w Hn) as [w1 [E1 N1]]. destruct t; cbn [try_create].
  - exists w. split; [reflexivity|left; reflexivity].
  - rewrite E1. cbn [bind].
    destruct (rm_spec n w1) as [w2 [E2 N2]]; [rewrite N1; apply in_or_app; right; left; reflexivity|].
    exists w2. split; [exact E2|]. left. rewrite N2, N1. apply remove_first_app_last, Hn.
  - exists w1. split; [exact E1|]. right. exists n. auto.
Qed.

(* the shape shared by try_donor / try_acceptor of Alcoholic and Water *)
Lemma guarded_try_grows : forall (T : string -> Prop) (g : bool) t (cand : option string) w,
  match cand with Some n => T n /\ ~ In n (w_names w) | None => True end ->
  exists w', match cand with None => Some w | Some n => if g then try_create t n w else Some w end = Some w' /\
             grows T (w_names w) (w_names w').
Proof.
  intros T g t [n|] w H; [destruct g|]; try (exists w; split; [reflexivity|left; reflexivity]).
  apply try_create_grows; tauto.
Qed.

Definition lone_pair (n : string) : Prop := n = "LP1"%string \/ n = "LP2"%string.

Lemma lp_name_spec : forall w,
  match lp_name w with Some n => lone_pair n /\ ~ In n (w_names w) | None => True end.
Proof.
  intros w. unfold lp_name. destruct (has "LP2" w) eqn:E2; [exact I|]. destruct (has "LP1" w) eqn:E1.
  - split; [right; reflexivity|apply has_false, E2].
  - split; [left; reflexivity|apply has_false, E1].
Qed.

Lemma alc_try_donor_grows : forall h t w,
  exists w', alc_try_donor h t w = Some w' /\ grows (eq h) (w_names w) (w_names w').
Proof.
  intros h t w. unfold alc_try_donor. destruct (has h w) eqn:E; [exists w; split; [reflexivity|left; reflexivity]|].
  apply (guarded_try_grows (eq h) _ t (Some h)). split; [reflexivity|apply has_false, E].
Qed.

(* Alcoholic.try_acceptor and Water.try_acceptor differ in the bond-count test g only *)
Lemma try_acceptor_grows : forall (g : bool) t w,
  exists w', match lp_name w with None => Some w | Some n => if g then try_create t n w else Some w end = Some w' /\
             grows lone_pair (w_names w) (w_names w').
Proof. intros g t w. exact (guarded_try_grows lone_pair g t (lp_name w) w (lp_name_spec w)). Qed.

(* Water.try_donor adds H1 first, H2 only next to H1 *)
Definition wat_h (l : nl) (n : string) : Prop :=
  n = "H1"%string \/ (n = "H2"%string /\ In "H1"%string l).

Lemma wat_try_donor_grows : forall t w,
  exists w', wat_try_donor t w = Some w' /\ grows (wat_h (w_names w)) (w_names w) (w_names w').
Proof.
  intros t w. apply (guarded_try_grows _ _ t (wat_hname w)). unfold wat_hname.
  destruct (has "H2" w) eqn:E2; [exact I|]. destruct (has "H1" w) eqn:E1.
  - split; [right; split; [reflexivity|apply has_In, E1]|apply has_false, E2].
  - split; [left; reflexivity|apply has_false, E1].
Qed.

(* with h absent the oxygen has 1..3 bonds, so finalize always builds it *)
Lemma alc_finalize_grows : forall h w,
  exists w', alc_finalize h false w = Some w' /\ grows (eq h) (w_names w) (w_names w') /\ In h (w_names w').
Proof.
  intros h w. unfold alc_finalize. destruct (has h w) eqn:Eh.
  - exists w. split; [reflexivity|]. split; [left; reflexivity|apply has_In, Eh].
  - assert (B : in13 (alc_bonds h w) = true).
    { unfold alc_bonds, count_present. cbn [filter]. rewrite Eh. destruct (has "LP1" w), (has "LP2" w); reflexivity. }
    rewrite B. apply has_false in Eh. destruct (cr_spec h w Eh) as [w1 [E1 N1]].
    exists w1. split; [exact E1|]. rewrite N1. split; [right; exists h; auto|apply in_or_app; right; left; reflexivity].
Qed.

Lemma wat_finalize_unfold : forall f fx w, wat_finalize (S f) fx w =
    if fx then Some (w, fx)
    else if has "H2" w then Some (w, fx)
    else
      let addname := if has "H1" w then "H2"%string else "H1"%string in
      let isH1 := negb (has "H1" w) in
      match wat_bonds w with
      | 0 => cr addname w >>= wat_finalize f fx
      | 1 => cr addname w >>= fun w1 =>
               (if isH1 then wat_finalize f fx w1 else Some (w1, fx)) >>= fun r => Some (fst r, true)
      | 2 => cr addname w >>= fun w1 => if isH1 then wat_finalize f fx w1 else Some (w1, fx)
      | 3 => cr addname w >>= fun w1 => Some (w1, fx)
      | _ => Some (w, fx)
      end.
Proof. reflexivity. Qed.

(* with H2 absent the oxygen has fewer than four bonds, so whatever the lone pairs, Water.finalize
   creates the absent hydrogen; it goes round again only after H1 *)
Lemma wat_finalize_creates : forall f w w1, has "H2" w = false ->
  cr (if has "H1" w then "H2" else "H1")%string w = Some w1 ->
  option_map fst (wat_finalize (S f) false w) =
  if has "H1" w then Some w1 else option_map fst (wat_finalize f false w1).
Proof.
  intros f w w1 E2 C1. rewrite wat_finalize_unfold, E2. unfold wat_bonds, count_present. cbn [filter]. rewrite E2.
  destruct (has "H1" w), (has "LP1" w), (has "LP2" w); cbn [List.length negb]; cbv zeta; rewrite C1; cbn [bind];
    try reflexivity; destruct (wat_finalize f false w1) as [[w2 fx]|]; reflexivity.
Qed.

Lemma wat_finalize_names : forall w, (In "H2"%string (w_names w) -> In "H1"%string (w_names w)) ->
  exists w' fx', wat_finalize 4 false w = Some (w', fx') /\
    w_names w' = (w_names w ++ (if has "H1" w then [] else ["H1"%string]) ++ (if has "H2" w then [] else ["H2"%string]))%list.
Proof.
  intros w H21.
  assert (F : exists w', option_map fst (wat_finalize 4 false w) = Some w' /\
    w_names w' = (w_names w ++ (if has "H1" w then [] else ["H1"%string]) ++ (if has "H2" w then [] else ["H2"%string]))%list).
  { destruct (has "H2" w) eqn:E2.
    - rewrite (proj2 (has_In _ _) (H21 (proj1 (has_In _ _) E2))). exists w. rewrite wat_finalize_unfold, E2.
      split; [reflexivity|]. rewrite !app_nil_r. reflexivity.
    - pose proof (fun w1 => wat_finalize_creates 3 w w1 E2) as F1. destruct (has "H1" w) eqn:E1.
      + destruct (cr_spec "H2"%string w) as [w1 [C1 N1]]; [apply has_false, E2|]. exists w1. auto.
      + destruct (cr_spec "H1"%string w) as [w1 [C1 N1]]; [apply has_false, E1|]. rewrite (F1 w1 C1).
        assert (H1' : has "H1" w1 = true) by (apply has_In; rewrite N1; apply in_or_app; right; left; reflexivity).
        assert (H2' : has "H2" w1 = false).
        { apply has_false. rewrite N1. intros H. apply in_app_or in H. destruct H as [H|[H|[]]]; [|discriminate].
          apply has_false in E2. auto. }
        destruct (cr_spec "H2"%string w1) as [w2 [C2 N2]]; [apply has_false, H2'|].
        pose proof (wat_finalize_creates 2 w1 w2 H2') as F2. rewrite H1' in F2. exists w2. split; [exact (F2 C2)|].
        rewrite N2, N1, <- app_assoc. reflexivity. }
  destruct F as [w' [E N]]. destruct (wat_finalize 4 false w) as [[w0 fx]|]; [|discriminate].
  exists w0, fx. split; [reflexivity|]. injection E as ->. exact N.
Qed.

Section Stock.
  Variables lo extra : nl.   (* always present / may be added by the protocol, besides LP1, LP2 *)

  Definition spare (x : string) : Prop := In x extra \/ lone_pair x.

  Definition Over (l : nl) : Prop :=
    NoDup l /\ incl lo l /\ (forall x, In x l -> In x lo \/ spare x).

  Lemma Over_app : forall l add, Over l -> NoDup add -> (forall x, In x add -> spare x /\ ~ In x l) ->
    Over (l ++ add) /\ incl l (l ++ add).
  Proof.
    intros l add [Hn [Hlo Hup]] Ha Hadd. split; [|apply incl_appl, incl_refl]. split; [|split].
    - apply NoDup_app_intro; auto. intros x Hx Hx'. exact (proj2 (Hadd x Hx') Hx).
    - apply incl_appl, Hlo.
    - intros x Hx. apply in_app_or in Hx. destruct Hx as [Hx|Hx]; [auto|right; apply Hadd, Hx].
  Qed.

  Lemma Over_grows : forall (T : string -> Prop) l l', (forall n, T n -> spare n) ->
    Over l -> grows T l l' -> Over l' /\ incl l l'.
  Proof.
    intros T l l' HT Hi [->|[n [Ht [Hni ->]]]]; [split; [exact Hi|apply incl_refl]|].
    apply Over_app; [exact Hi|constructor; [intros []|constructor]|]. intros x [<-|[]]. auto.
  Qed.

  Lemma remove_lps_final : forall e w,
    (forall x, In x lo \/ In x extra -> placeholder x = false) ->
    (forall x, In x e <-> In x lo \/ In x extra) ->
    Over (w_names w) -> incl extra (w_names w) ->
    exists w', remove_lps w = Some w' /\ final_ok e (w_names w').
  Proof.
    intros e w Hpl He [Hn [Hlo Hup]] Hex. destruct (rm_pred_spec isLP w Hn) as [w' [E' [Nd' S']]].
    exists w'. split; [rewrite remove_lps_rm_pred; exact E'|]. apply final_ok_set; [exact Nd'| |intros x Hx; apply Hpl, He, Hx].
    intros x. rewrite He, S'. split.
    - intros [Hx Hl]. destruct (Hup x Hx) as [H|[H|[->| ->]]]; auto; discriminate.
    - intros Hx. split; [destruct Hx; auto|]. apply Hpl in Hx. unfold placeholder in Hx.
      destruct (isLP x); [|reflexivity]. rewrite orb_true_r in Hx. discriminate.
  Qed.
End Stock.

Section AlcParam.
  Variables (h : string) (base : nl).
  Hypothesis Hwf : wf_alc h base = true.

  Definition AInv (s : pst) : Prop := Over (remove_first h base) [h] (names s) /\ fixed s = false.

  Lemma wf_alc_parts : NoDup base /\ (forall x, In x base -> placeholder x = false) /\ placeholder h = false.
  Proof.
    pose proof Hwf as H. unfold wf_alc in H. rewrite !andb_true_iff, negb_true_iff, nodupb_NoDup in H.
    destruct H as [[H1 H2] H3]. split; [exact H1|]. split; [apply forallb_negb, H2|exact H3].
  Qed.

  Lemma alc_start_inv : ensures AInv (alc_start h base).
  Proof.
    destruct wf_alc_parts as [Hn _]. unfold alc_start. cbv zeta. apply ensures_fin.
    assert (E : exists w, (if has h (mkW base []) then rm h (mkW base []) else Some (mkW base [])) = Some w /\
                          w_names w = remove_first h base).
    { destruct (has h (mkW base [])) eqn:Eh.
      - apply rm_spec, has_In, Eh.
      - eexists. split; [reflexivity|]. symmetry. apply remove_first_notin, has_false, Eh. }
    destruct E as [w [E N]]. exists w. split; [exact E|]. split; [|reflexivity]. cbn [names]. rewrite N.
    split; [apply NoDup_remove_first, Hn|]. split; [apply incl_refl|auto].
  Qed.

  Lemma alc_keeps : forall s (T : string -> Prop) x, AInv s ->
    (forall n, T n -> spare [h] n) ->
    (exists w', x = Some w' /\ grows T (names s) (w_names w')) ->
    ensures AInv (fin s false (hl s) (al s) x).
  Proof.
    intros s T x [Hi _] HT [w' [-> G]].
    split; [exact (proj1 (Over_grows _ _ T _ _ HT Hi G))|reflexivity].
  Qed.

  Lemma alc_step_inv : forall s l, AInv s -> ensures AInv (alc_step h s l).
  Proof.
    intros s l Hs. destruct l as [t|t|]; cbn [alc_step]; rewrite (proj2 Hs).
    - apply (alc_keeps s (eq h) _ Hs); [intros n <-; left; left; reflexivity|apply alc_try_donor_grows].
    - apply (alc_keeps s lone_pair _ Hs); [intros n Hn; right; exact Hn|].
      unfold alc_try_acceptor. apply try_acceptor_grows.
    - destruct (alc_finalize_grows h (start s)) as [w' [E [G _]]].
      apply (alc_keeps s (eq h) _ Hs); [intros n <-; left; left; reflexivity|exists w'; auto].
  Qed.

  Lemma alc_complete_ok : forall s c, AInv s ->
    ensures (fun s' => final_ok (alc_expected h base) (names s')) (alc_complete h s c).
  Proof.
    intros s c [Hi Hf]. destruct wf_alc_parts as [Hn [Hp Hph]]. unfold alc_complete. rewrite Hf.
    destruct (alc_finalize_grows h (start s)) as [w1 [E1 [G1 H1]]]. rewrite E1. cbn [bind].
    destruct (Over_grows _ [h] (eq h) _ _ (fun n (E : h = n) => or_introl (or_introl E)) Hi G1) as [I1 _].
    destruct (remove_lps_final (remove_first h base) [h] (alc_expected h base) w1) as [w2 [E2 F2]]; auto.
    - intros x [Hx|[<-|[]]]; [|exact Hph]. apply In_remove_first in Hx; [apply Hp, Hx|exact Hn].
    - intros x. unfold alc_expected. apply in_app_iff.
    - intros x [<-|[]]. exact H1.
    - rewrite E2. exact F2.
  Qed.

  Theorem alc_names_param : proto_ok _ _ (alc_step h) (alc_complete h) (alc_expected h base) (alc_start h base).
  Proof. exact (proto_ok_invariant _ _ _ _ AInv _ _ alc_step_inv alc_complete_ok alc_start_inv). Qed.
End AlcParam.

Theorem alc_table_param : forall l i h, forallb inst_wf l = true -> In i l -> i_kind i = KAlc h ->
  proto_ok _ _ (alc_step h) (alc_complete h) (i_expected i) (alc_start h (i_base i)).
Proof.
  intros l i h H Hi Hk. rewrite forallb_forall in H. specialize (H i Hi).
  unfold inst_wf in H. rewrite Hk in H. apply andb_true_iff in H. destruct H as [Hw He].
  apply nl_eqb_eq in He. rewrite He. apply alc_names_param. exact Hw.
Qed.

Lemma wat_expected_set : forall l x, In x (wat_expected l) <-> In x l \/ In x ["H1"; "H2"]%string.
Proof.
  intros l x. unfold wat_expected. rewrite !in_app_iff. cbn [In]. split.
  - intros [H|[H|H]]; auto.
    + destruct (mem "H1" l); cbn in H; [tauto|]. destruct H as [<-|[]]; auto.
    + destruct (mem "H2" l); cbn in H; [tauto|]. destruct H as [<-|[]]; auto.
  - intros [H|[<-|[<-|[]]]]; auto.
    + destruct (mem "H1" l) eqn:E; [left; apply mem_In; auto|right; left; left; reflexivity].
    + destruct (mem "H2" l) eqn:E; [left; apply mem_In; auto|right; right; left; reflexivity].
Qed.

Section WatParam.
  Variable base : nl.
  Hypothesis Hwf : wf_wat base = true.
  Local Open Scope string_scope.

  Definition WInv (s : pst) : Prop :=
    Over base ["H1"; "H2"] (names s) /\ (In "H2" (names s) -> In "H1" (names s)) /\
    (fixed s = true -> In "H1" (names s) /\ In "H2" (names s)).

  Lemma wf_wat_parts : NoDup base /\ (forall x, In x base -> placeholder x = false) /\ (In "H2" base -> In "H1" base).
  Proof.
    pose proof Hwf as H. unfold wf_wat in H. rewrite !andb_true_iff, nodupb_NoDup in H.
    destruct H as [[H1 H2] H3]. split; [exact H1|]. split; [apply forallb_negb, H2|].
    intros Hin. apply mem_In in Hin. rewrite Hin in H3. apply mem_In, H3.
  Qed.

  Lemma wat_keeps : forall s (T : string -> Prop) x, WInv s ->
    (forall n, T n -> spare ["H1"; "H2"] n /\ (n = "H2" -> In "H1" (names s))) ->
    (exists w', x = Some w' /\ grows T (names s) (w_names w')) ->
    ensures WInv (fin s (fixed s) (hl s) (al s) x).
  Proof.
    intros s T x [Hi [H21 Hf]] HT [w' [-> G]].
    destruct (Over_grows _ _ T _ _ (fun n Hn => proj1 (HT n Hn)) Hi G) as [I' Hinc].
    split; [exact I'|]. cbn [names fixed]. split.
    - destruct G as [->|[n [Ht [Hni ->]]]]; [exact H21|]. intros H2. apply in_or_app. left.
      apply in_app_or in H2. destruct H2 as [H2|[E|[]]]; [auto|exact (proj2 (HT _ Ht) E)].
    - intros F. destruct (Hf F). split; apply Hinc; assumption.
  Qed.

  Lemma wat_finalize_spec : forall s, WInv s ->
    exists w' fx', wat_finalize 4 (fixed s) (start s) = Some (w', fx') /\ Over base ["H1"; "H2"] (w_names w') /\
                   In "H1" (w_names w') /\ In "H2" (w_names w').
  Proof.
    intros s [Hi [H21 Hf]]. destruct (fixed s).
    - destruct (Hf eq_refl). exists (start s), true. split; [reflexivity|]. split; [exact Hi|]. auto.
    - destruct (wat_finalize_names (start s) H21) as [w' [fx' [E N]]]. exists w', fx'. split; [exact E|].
      rewrite N. cbn [w_names start].
      destruct (Over_app _ _ (names s) ((if has "H1" (start s) then [] else ["H1"]) ++
                                        (if has "H2" (start s) then [] else ["H2"]))%list Hi) as [I' S'].
      + destruct (has "H1" (start s)), (has "H2" (start s)); cbn [app]; repeat constructor; cbn; intuition discriminate.
      + intros x Hx. apply in_app_or in Hx.
        destruct Hx as [Hx|Hx]; [destruct (has "H1" (start s)) eqn:E1|destruct (has "H2" (start s)) eqn:E2];
          cbn in Hx; try contradiction; destruct Hx as [<-|[]];
          (split; [left; cbn; auto|apply (has_false _ (start s)); assumption]).
      + split; [exact I'|]. split.
        * destruct (has "H1" (start s)) eqn:E1; [apply S', (has_In _ (start s)), E1|].
          apply in_or_app. right. left. reflexivity.
        * destruct (has "H2" (start s)) eqn:E2; [apply S', (has_In _ (start s)), E2|].
          apply in_or_app. right. apply in_or_app. right. left. reflexivity.
  Qed.

  Lemma wat_step_inv : forall s l, WInv s -> ensures WInv (wat_step s l).
  Proof.
    intros s l Hs. destruct l as [t|t|]; cbn [wat_step].
    - apply (wat_keeps s (wat_h (names s))); auto; [|apply wat_try_donor_grows].
      intros n [->|[-> H1]]; (split; [left; cbn; auto|]); [discriminate|auto].
    - apply (wat_keeps s lone_pair); auto; [|unfold wat_try_acceptor; apply try_acceptor_grows].
      intros n Hn. split; [right; exact Hn|]. intros ->. destruct Hn; discriminate.
    - destruct (wat_finalize_spec s Hs) as [w' [fx' [E [I' [H1 H2]]]]]. rewrite E.
      split; [exact I'|]. cbn [names fixed]. auto.
  Qed.

  Lemma wat_complete_ok : forall s c, WInv s ->
    ensures (fun s' => final_ok (wat_expected base) (names s')) (wat_complete s c).
  Proof.
    intros s c Hs. destruct wf_wat_parts as [Hn [Hp _]]. unfold wat_complete.
    destruct (wat_finalize_spec s Hs) as [w1 [fx1 [E1 [I1 [H1 H2]]]]]. rewrite E1. cbn [bind fst snd].
    destruct (remove_lps_final base ["H1"; "H2"] (wat_expected base) w1) with (3 := I1) as [w2 [E2 F2]].
    - intros x [Hx|[<-|[<-|[]]]]; auto.
    - apply wat_expected_set.
    - intros x [<-|[<-|[]]]; assumption.
    - rewrite E2. exact F2.
  Qed.

  Lemma wat_start_inv : ensures WInv (wat_start base).
  Proof.
    destruct wf_wat_parts as [Hn [_ H21]]. split; [|split; [exact H21|discriminate]].
    split; [exact Hn|]. split; [apply incl_refl|auto].
  Qed.

  Theorem wat_names_param : proto_ok _ _ wat_step wat_complete (wat_expected base) (wat_start base).
  Proof. exact (proto_ok_invariant _ _ _ _ WInv _ _ wat_step_inv wat_complete_ok wat_start_inv). Qed.
End WatParam.

Theorem wat_table_param : forall l i, forallb inst_wf l = true -> In i l -> i_kind i = KWat ->
  proto_ok _ _ wat_step wat_complete (i_expected i) (wat_start (i_base i)).
Proof.
  intros l i H Hi Hk. rewrite forallb_forall in H. specialize (H i Hi).
  unfold inst_wf in H. rewrite Hk in H. apply andb_true_iff in H. destruct H as [Hw He].
  apply nl_eqb_eq in He. rewrite He. apply wat_names_param. exact Hw.
Qed.

Lemma isF_app : forall m, isF (m ++ FLIPs) = true.
Proof.
  intros m. unfold isF, ends_with, slen. rewrite length_app. cbn [String.length FLIPs].
  replace (String.length m + 4 - 4) with (String.length m) by lia.
  rewrite drop_app_exact. rewrite String.eqb_refl. rewrite andb_true_r. apply Nat.leb_le. lia.
Qed.

Lemma unF_app : forall m, unF (m ++ FLIPs) = m.
Proof.
  intros m. unfold unF, chop, slen. rewrite length_app. cbn [String.length FLIPs].
  replace (String.length m + 4 - 4) with (String.length m) by lia. apply take_app_exact.
Qed.

Lemma fix_flip_true_spec : forall w, NoDup (w_names w) ->
  exists w', fix_flip true w = Some w' /\ NoDup (w_names w') /\
    forall y, In y (w_names w') <-> In y (w_names w) /\ ~ (exists a, In a (w_names w) /\ isF a = true /\ unF a = y).
Proof.
  intros w Hn.
  apply (loop_removes (fun a w' => if isF a then (if has (unF a) w' then rm (unF a) w' else Some w') else Some w')
           (fun a y => isF a = true /\ unF a = y) (fun _ w' => NoDup (w_names w'))); [|exact Hn].
  intros a r w1 Hn1. destruct (isF a); [destruct (has (unF a) w1) eqn:Eh|].
  - destruct (rm_spec (unF a) w1) as [w2 [E2 N2]]; [apply has_In, Eh|]. exists w2. split; [exact E2|].
    rewrite N2. split; [apply NoDup_remove_first, Hn1|]. intros y. rewrite In_remove_first by auto.
    split; intros [Hy Hne]; (split; [exact Hy|]); [intros [_ E]; auto|intros ->; auto].
  - exists w1. split; [reflexivity|]. split; [exact Hn1|]. apply has_false in Eh.
    intros y. split; [|tauto]. intros Hy. split; [exact Hy|]. intros [_ <-]. contradiction.
  - exists w1. split; [reflexivity|]. split; [exact Hn1|].
    intros y. split; [|tauto]. intros Hy. split; [exact Hy|]. intros [E _]. discriminate.
Qed.

Lemma rm_rn_spec : forall a b w, NoDup (w_names w) -> In a (w_names w) -> In b (w_names w) -> a <> b ->
  exists w', rm b w >>= rn a b = Some w' /\ NoDup (w_names w') /\
             forall y, In y (w_names w') <-> In y (w_names w) /\ y <> a.
Proof.
  intros a b w Hn Ha Hb Hne. destruct (rm_spec b w Hb) as [w1 [E1 N1]]. rewrite E1. cbn [bind].
  assert (Hn1 : NoDup (w_names w1)) by (rewrite N1; apply NoDup_remove_first; auto).
  assert (Hin1 : In a (w_names w1)) by (rewrite N1; apply In_remove_first; auto).
  assert (Hni1 : ~ In b (w_names w1)) by (rewrite N1, In_remove_first by auto; tauto).
  destruct (rn_spec a b w1 Hin1 Hni1) as [w2 [E2 N2]]. exists w2. split; [exact E2|].
  split; [rewrite N2; apply NoDup_replace_first; auto|].
  intros y. rewrite N2, In_replace_first by auto. rewrite N1, In_remove_first by auto. split.
  - intros [[[Hy H1] H2]| ->]; auto.
  - intros [Hy Hya]. destruct (string_dec y b) as [->|Hd]; auto.
Qed.

Lemma finalize_body_spec : forall w, NoDup (w_names w) ->
  (forall a, In a (w_names w) -> isF a = true -> In (unF a) (w_names w) /\ isF (unF a) = false) ->
  exists w', flip_finalize_body w = Some w' /\ NoDup (w_names w') /\
    forall y, In y (w_names w') <-> In y (w_names w) /\ isF y = false.
Proof.
  intros w Hn Hpre.
  destruct (loop_removes (fun a w' => if isF a then rm (unF a) w' >>= rn a (unF a) else Some w')
              (fun a y => isF a = true /\ y = a)
              (fun r w' => NoDup (w_names w') /\ NoDup r /\
                 forall a, In a r -> isF a = true -> In a (w_names w') /\ In (unF a) (w_names w') /\ isF (unF a) = false))
    with (todo := w_names w) (w := w) as [w' [E' [[Nd' _] S']]].
  - intros a r w0 [Hn0 [Hnr Hin]]. inversion Hnr as [|? ? Ha Hr]; subst. destruct (isF a) eqn:Ef.
    + destruct (Hin a) as [Ha1 [Ha2 Ha3]]; [left; reflexivity|exact Ef|].
      assert (Hne : a <> unF a) by (intros E; rewrite <- E in Ha3; congruence).
      destruct (rm_rn_spec a (unF a) w0 Hn0 Ha1 Ha2 Hne) as [w2 [E2 [Nd2 S2]]]. exists w2. split; [exact E2|].
      split; [split; [exact Nd2|split; [exact Hr|]]|].
      * intros b Hb Hfb. destruct (Hin b) as [Hb1 [Hb2 Hb3]]; [right; exact Hb|exact Hfb|]. rewrite !S2.
        split; [split; [exact Hb1|intros ->; contradiction]|]. split; [|exact Hb3].
        split; [exact Hb2|]. intros E. rewrite E in Hb3. congruence.
      * intros y. rewrite S2. split; intros [Hy Hne']; (split; [exact Hy|]); [intros [_ E]; auto|intros ->; auto].
    + exists w0. split; [reflexivity|]. split; [split; [exact Hn0|split; [exact Hr|]]|].
      * intros b Hb. apply Hin. right. exact Hb.
      * intros y. split; [|tauto]. intros Hy. split; [exact Hy|]. intros [E _]. discriminate.
  - split; [exact Hn|]. split; [exact Hn|]. intros a Ha Hf. split; [exact Ha|auto].
  - exists w'. split; [exact E'|]. split; [exact Nd'|]. intros y. rewrite S'. apply snapshot_pred.
Qed.

Definition unF_inj (todo : nl) : Prop :=
  forall a b, In a todo -> In b todo -> isF a = true -> isF b = true -> unF a = unF b -> a = b.

Lemma rename_rest_loop : forall todo w, NoDup (w_names w) -> NoDup todo -> unF_inj todo ->
  (forall a, In a todo -> isF a = true -> In a (w_names w) /\ ~ In (unF a) (w_names w) /\ isF (unF a) = false) ->
  exists w', fold_left (fun acc a => acc >>= fun w' => if isF a then rn a (unF a) w' else Some w') todo (Some w) = Some w' /\
    NoDup (w_names w') /\
    forall y, In y (w_names w') <-> (In y (w_names w) /\ ~ (exists a, In a todo /\ isF a = true /\ y = a)) \/
                                    (exists a, In a todo /\ isF a = true /\ y = unF a).
Proof.
  intros todo w Hn Hnt Hinj Hpre.
  destruct (loop_spec (fun a w' => if isF a then rn a (unF a) w' else Some w')
              (fun a y => isF a = true /\ y = a) (fun a y => isF a = true /\ y = unF a)
              (fun r w' => NoDup (w_names w') /\ NoDup r /\ unF_inj r /\
                 forall a, In a r -> isF a = true ->
                           In a (w_names w') /\ ~ In (unF a) (w_names w') /\ isF (unF a) = false))
    with (todo := todo) (w := w) as [w' [E' [[Nd' _] S']]]; [| |auto|eauto].
  2: { (* a name put in is the original of a copy, so it is no copy *)
    intros a r w0 [_ [_ [_ Hp]]] b y _ [Hfa ->] [Hfb E].
    destruct (Hp a (or_introl eq_refl) Hfa) as [_ [_ Ha3]]. congruence. }
  intros a r w0 [Hn0 [Hnr [Hi Hp]]]. inversion Hnr as [|? ? Ha Hr]; subst.
  assert (Hi' : unF_inj r) by (intros x y Hx Hy; apply Hi; right; assumption).
  destruct (isF a) eqn:Ef.
  - destruct (Hp a) as [Ha1 [Ha2 Ha3]]; [left; reflexivity|exact Ef|].
    destruct (rn_spec a (unF a) w0 Ha1 Ha2) as [w2 [E2 N2]]. exists w2. split; [exact E2|].
    assert (S2 : forall y, In y (w_names w2) <-> (In y (w_names w0) /\ y <> a) \/ y = unF a).
    { intros y. rewrite N2. apply In_replace_first; auto. }
    split; [split; [rewrite N2; apply NoDup_replace_first; auto|split; [exact Hr|split; [exact Hi'|]]]|].
    + intros b Hb Hfb. destruct (Hp b) as [Hb1 [Hb2 Hb3]]; [right; exact Hb|exact Hfb|]. rewrite !S2.
      split; [left; split; [exact Hb1|intros ->; contradiction]|]. split; [|exact Hb3].
      intros [[H1 _]|H3]; [contradiction|].
      assert (b = a) by (apply Hi; cbn; auto). subst. contradiction.
    + intros y. rewrite S2. split; (intros [[Hy Hne]|Hy]; [left; split; [exact Hy|]|right]); tauto.
  - exists w0. split; [reflexivity|]. split; [split; [exact Hn0|split; [exact Hr|split; [exact Hi'|]]]|].
    + intros b Hb. apply Hp. right. exact Hb.
    + intros y. split; [intros Hy; left; split; [exact Hy|]|]; [intros [E _]; discriminate|].
      intros [[Hy _]|[E _]]; [exact Hy|discriminate].
Qed.

Lemma rename_rest_spec : forall w, NoDup (w_names w) -> unF_inj (w_names w) ->
  (forall a, In a (w_names w) -> isF a = true -> ~ In (unF a) (w_names w) /\ isF (unF a) = false) ->
  exists w', flip_rename_rest w = Some w' /\ NoDup (w_names w') /\
    forall y, In y (w_names w') <-> (In y (w_names w) /\ isF y = false) \/
                                    (exists a, In a (w_names w) /\ isF a = true /\ y = unF a).
Proof.
  intros w Hn Hinj Hpre. destruct (rename_rest_loop (w_names w) w Hn Hn Hinj) as [w' [E' [Nd' S']]].
  { intros a Ha Hf. split; [exact Ha|auto]. }
  exists w'. split; [exact E'|]. split; [exact Nd'|]. intros y. rewrite S', (snapshot_pred isF). reflexivity.
Qed.

Section FlipParam.
  Variables (base mv : nl).
  Hypothesis Hwf : wf_flip base mv = true.

  Definition Fl (m : string) : string := (m ++ FLIPs)%string.

  Lemma wf_flip_parts : NoDup base /\ NoDup mv /\ (forall m, In m mv -> In m base) /\
                        (forall x, In x base -> placeholder x = false).
  Proof.
    pose proof Hwf as H. unfold wf_flip in H. rewrite !andb_true_iff, !nodupb_NoDup in H.
    destruct H as [[[H1 H2] H3] H4]. split; [exact H1|]. split; [exact H2|]. split; [|apply forallb_negb, H4].
    intros m Hm. rewrite forallb_forall in H3. apply mem_In, H3, Hm.
  Qed.

  Lemma base_notF : forall x, In x base -> isF x = false.
  Proof.
    intros x Hx. destruct wf_flip_parts as [_ [_ [_ Hp]]]. specialize (Hp x Hx).
    unfold placeholder in Hp. destruct (isF x); auto.
  Qed.

  Lemma mv_notF : forall m, In m mv -> isF m = false.
  Proof. intros m Hm. apply base_notF. destruct wf_flip_parts as [_ [_ [H _]]]. auto. Qed.

  (* the names are those of base, the moveable ones possibly replaced or accompanied by
     their FLIP copy: both present until the residue is fixed, then one of the two sets *)
  Definition Frame (l : nl) : Prop :=
    NoDup l /\ (forall x, In x l -> In x base \/ exists m, In m mv /\ x = Fl m) /\
    (forall b, In b base -> ~ In b mv -> In b l).
  Definition Both (l : nl) := forall m, In m mv -> In m l /\ In (Fl m) l.
  Definition Orig (l : nl) := forall m, In m mv -> In m l /\ ~ In (Fl m) l.
  Definition FlipO (l : nl) := forall m, In m mv -> ~ In m l /\ In (Fl m) l.
  Definition FInv (s : pst) : Prop :=
    Frame (names s) /\ ((fixed s = false /\ Both (names s)) \/
                        (fixed s = true /\ (Orig (names s) \/ FlipO (names s)))).

  Lemma F_char : forall l x, Frame l -> In x l -> (isF x = true <-> exists m, In m mv /\ x = Fl m).
  Proof.
    intros l x [_ [He _]] Hx. split.
    - intros Hf. destruct (He x Hx) as [Hb|Hm]; auto. apply base_notF in Hb. congruence.
    - intros [m [_ ->]]. apply isF_app.
  Qed.

  Lemma notF_base : forall l x, Frame l -> In x l -> isF x = false -> In x base.
  Proof.
    intros l x [_ [He _]] Hx Hf. destruct (He x Hx) as [Hb|[m [_ ->]]]; auto.
    unfold Fl in Hf. rewrite isF_app in Hf. discriminate.
  Qed.

  Lemma inj_l : forall l, Frame l -> unF_inj l.
  Proof.
    intros l Hfr a b Ha Hb Hfa Hfb E.
    apply (F_char l a Hfr Ha) in Hfa. apply (F_char l b Hfr Hb) in Hfb.
    destruct Hfa as [m [_ ->]]. destruct Hfb as [m' [_ ->]]. unfold Fl in E. rewrite !unF_app in E. subst. auto.
  Qed.

  Lemma both_pre : forall l, Frame l -> Both l ->
    forall a, In a l -> isF a = true -> In (unF a) l /\ isF (unF a) = false.
  Proof.
    intros l Hfr HB a Ha Hfa. apply (F_char l a Hfr Ha) in Hfa. destruct Hfa as [m [Hm ->]].
    unfold Fl. rewrite unF_app. split; [apply HB, Hm|apply mv_notF, Hm].
  Qed.

  Lemma init_spec : forall ms w, NoDup ms -> NoDup (w_names w) -> (forall m, In m ms -> ~ In (Fl m) (w_names w)) ->
    exists w', flip_init ms w = Some w' /\ w_names w' = (w_names w ++ map Fl ms)%list /\ NoDup (w_names w').
  Proof.
    unfold flip_init. induction ms as [|m r IH]; intros w Hnm Hn Hfresh.
    - exists w. cbn. rewrite app_nil_r. auto.
    - inversion Hnm as [|? ? Hm Hr]; subst. cbn [fold_left bind].
      destruct (cr_spec (m ++ FLIPs)%string w) as [w1 [E1 N1]]; [apply (Hfresh m); cbn; auto|]. rewrite E1.
      destruct (IH w1) as [w' [E' [N' Nd']]]; auto.
      + rewrite N1. apply NoDup_app_last; auto. apply (Hfresh m). cbn; auto.
      + intros m' Hm' Hin. rewrite N1 in Hin. apply in_app_or in Hin. destruct Hin as [Hin|[E|[]]].
        * apply (Hfresh m'); cbn; auto.
        * apply (f_equal unF) in E. unfold Fl in E. rewrite !unF_app in E. subst. contradiction.
      + exists w'. split; auto. split; auto. rewrite N', N1. rewrite <- app_assoc. reflexivity.
  Qed.

  Lemma flip_start_inv : ensures FInv (flip_start base mv).
  Proof.
    destruct wf_flip_parts as [Hnb [Hnm [Hsub Hp]]].
    destruct (init_spec mv (mkW base [])) as [w' [E' [N' Nd']]]; auto.
    { intros m Hm Hin. cbn in Hin. apply base_notF in Hin. unfold Fl in Hin. rewrite isF_app in Hin. discriminate. }
    apply ensures_fin. exists w'. split; [exact E'|]. cbn [w_names] in N'. split; cbn [names fixed].
    - split; [auto|]. split.
      + intros x Hx. rewrite N' in Hx. apply in_app_or in Hx. destruct Hx as [Hx|Hx]; auto.
        apply in_map_iff in Hx. destruct Hx as [m [<- Hm]]. right. exists m. auto.
      + intros b Hb _. rewrite N'. apply in_or_app. auto.
    - left. split; auto. intros m Hm. rewrite N'. split; apply in_or_app; [left; auto|right; apply in_map; auto].
  Qed.

  Lemma nonF_orig : forall l l', Frame l -> (forall m, In m mv -> In m l) -> NoDup l' ->
    (forall y, In y l' <-> In y l /\ isF y = false) -> Frame l' /\ Orig l' /\ final_ok base l'.
  Proof.
    intros l l' Hfr Hm Hn Hs. pose proof Hfr as [_ [He Hb]]. destruct wf_flip_parts as [_ [_ [Hsub Hp]]].
    assert (Hl' : forall y, In y l' <-> In y base).
    { intros y. rewrite Hs. split.
      - intros [Hy Hf]. eapply notF_base; eauto.
      - intros Hy. split; [|apply base_notF; auto]. destruct (in_dec string_dec y mv); auto. }
    split; [|split].
    - split; auto. split.
      + intros x Hx. left. apply Hl', Hx.
      + intros b Hb1 _. apply Hl', Hb1.
    - intros m Hmm. split; [apply Hl', Hsub, Hmm|].
      intros Hin. apply Hs in Hin. destruct Hin as [_ Hf]. unfold Fl in Hf. rewrite isF_app in Hf. discriminate.
    - apply final_ok_set; assumption.
  Qed.

  Lemma origs_gone : forall l l', Frame l -> (forall m, In m mv -> In (Fl m) l) -> NoDup l' ->
    (forall y, In y l' <-> In y l /\ ~ (exists a, In a l /\ isF a = true /\ unF a = y)) -> Frame l' /\ FlipO l'.
  Proof.
    intros l l' Hfr Hall Hn Hs. pose proof Hfr as [_ [He Hb]].
    assert (Hl' : forall y, In y l' <-> In y l /\ ~ In y mv).
    { intros y. rewrite Hs. split; intros [Hy H]; (split; [exact Hy|]); intros Hc; apply H.
      - exists (Fl y). split; [apply Hall, Hc|]. split; [apply isF_app|apply unF_app].
      - destruct Hc as [a [Ha [Hfa <-]]]. apply (F_char l a Hfr Ha) in Hfa. destruct Hfa as [m [Hm ->]].
        unfold Fl. rewrite unF_app. exact Hm. }
    split.
    - split; [exact Hn|]. split.
      + intros x Hx. apply He, Hl', Hx.
      + intros b Hb1 Hb2. apply Hl'. auto.
    - intros m Hm. split; [intros Hin; apply Hl' in Hin; tauto|]. apply Hl'. split; [apply Hall, Hm|].
      intros Hc. apply mv_notF in Hc. unfold Fl in Hc. rewrite isF_app in Hc. discriminate.
  Qed.

  Lemma bn_in_mv : forall bn, mem bn (flip_cands mv) = true -> isF bn = false -> In bn mv.
  Proof.
    intros bn Hc Hf. apply mem_In in Hc. unfold flip_cands in Hc. apply in_app_or in Hc.
    destruct Hc as [H|H]; auto. apply in_map_iff in H. destruct H as [m [<- _]]. rewrite isF_app in Hf. discriminate.
  Qed.

  Lemma flip_step_inv : forall s l, FInv s -> ensures FInv (flip_step mv s l).
  Proof.
    intros s l [Hfr Hmode]. pose proof Hfr as [Hnd [He Hbm]].
    destruct l as [bn|]; unfold flip_step.
    - destruct (mem bn (flip_cands mv)) eqn:Ec; [|exact I].
      destruct (mem bn (names s)) eqn:El; [|exact I]. cbn [negb orb].
      apply mem_In in El. apply ensures_fin. destruct (isF bn) eqn:Eb.
      + (* a FLIP copy made the bond: the originals go *)
        destruct (fix_flip_true_spec (start s)) as [w' [E' [Nd' S']]]; auto. exists w'. split; [exact E'|].
        assert (Hall : forall m, In m mv -> In (Fl m) (names s)).
        { intros m Hm. destruct Hmode as [[_ HB]|[_ [HO|HF]]].
          - apply HB; auto.
          - exfalso. apply (F_char _ bn Hfr El) in Eb. destruct Eb as [m2 [Hm2 ->]]. destruct (HO m2 Hm2). contradiction.
          - apply HF; auto. }
        destruct (origs_gone (names s) (w_names w') Hfr Hall Nd' S') as [Hfr' HF'].
        split; cbn [names fixed]; auto.
      + (* an original atom made the bond: the FLIP copies go *)
        destruct (rm_pred_spec isF (start s)) as [w' [E' [Nd' S']]]; auto.
        exists w'. split; [rewrite fix_flip_false_rm_pred; exact E'|].
        assert (Hall : forall m, In m mv -> In m (names s)).
        { intros m Hm. destruct Hmode as [[_ HB]|[_ [HO|HF]]].
          - apply HB; auto. - apply HO; auto.
          - exfalso. apply bn_in_mv in Ec; auto. destruct (HF bn Ec). contradiction. }
        destruct (nonF_orig (names s) (w_names w') Hfr Hall Nd' S') as [Hfr' [HO' _]].
        split; cbn [names fixed]; auto.
    - destruct (fixed s) eqn:Ef.
      + split; auto. rewrite Ef. exact Hmode.
      + destruct Hmode as [[_ HB]|[Hc _]]; [|congruence]. apply ensures_fin.
        destruct (finalize_body_spec (start s) Hnd (both_pre _ Hfr HB)) as [w' [E' [Nd' S']]].
        exists w'. split; [exact E'|].
        destruct (nonF_orig (names s) (w_names w') Hfr (fun m Hm => proj1 (HB m Hm)) Nd' S') as [Hfr' [HO' _]].
        split; cbn [names fixed]; auto.
  Qed.

  Lemma rename_rest_noF : forall w, NoDup (w_names w) -> (forall a, In a (w_names w) -> isF a = false) ->
    exists w', flip_rename_rest w = Some w' /\ NoDup (w_names w') /\ forall y, In y (w_names w') <-> In y (w_names w).
  Proof.
    intros w Hn Hno. destruct (rename_rest_spec w Hn) as [w' [E' [Nd' S']]].
    - intros a b Ha _ Hfa. rewrite Hno in Hfa; auto. discriminate.
    - intros a Ha Hfa. rewrite Hno in Hfa; auto. discriminate.
    - exists w'. split; auto. split; auto. intros y. rewrite S'. split.
      + intros [[Hy _]|[a [Ha [Hfa _]]]]; auto. rewrite Hno in Hfa; auto. discriminate.
      + intros Hy. left. split; auto.
  Qed.

  Lemma flip_complete_ok : forall s c, FInv s ->
    ensures (fun s' => final_ok base (names s')) (flip_complete s c).
  Proof.
    intros s c [Hfr Hmode]. pose proof Hfr as [Hnd [He Hbm]]. destruct wf_flip_parts as [_ [_ [Hsub Hp]]].
    unfold flip_complete. apply ensures_fin. destruct Hmode as [[Ef HB]|[Ef [HO|HF]]]; rewrite Ef.
    - destruct (finalize_body_spec (start s) Hnd (both_pre _ Hfr HB)) as [w1 [E1 [Nd1 S1]]].
      rewrite E1. cbn [bind].
      destruct (rename_rest_noF (mkW (w_names w1) (w_log w1))) as [w2 [E2 [Nd2 S2]]]; auto.
      { intros a Ha. apply S1 in Ha. apply Ha. }
      exists w2. split; [exact E2|]. cbn [names].
      apply (nonF_orig (names s)); auto.
      { intros m Hm. apply HB; auto. }
      intros y. rewrite S2. apply S1.
    - cbn [bind].
      assert (HnoF : forall a, In a (names s) -> isF a = false).
      { intros a Ha. destruct (isF a) eqn:E; auto. apply (F_char _ a Hfr Ha) in E. destruct E as [m [Hm ->]].
        destruct (HO m Hm). contradiction. }
      destruct (rename_rest_noF (mkW (w_names (start s)) (w_log (start s)))) as [w2 [E2 [Nd2 S2]]]; auto.
      exists w2. split; [exact E2|]. cbn [names].
      apply (nonF_orig (names s)); auto.
      { intros m Hm. apply HO; auto. }
      intros y. rewrite S2. split; [intros Hy; split; auto|tauto].
    - cbn [bind].
      destruct (rename_rest_spec (mkW (w_names (start s)) (w_log (start s)))) as [w2 [E2 [Nd2 S2]]]; auto.
      { apply inj_l; auto. }
      { intros a Ha Hfa. cbn [w_names start] in *. apply (F_char _ a Hfr Ha) in Hfa. destruct Hfa as [m [Hm ->]].
        unfold Fl. rewrite unF_app. destruct (HF m Hm). split; auto. apply mv_notF; auto. }
      exists w2. split; [exact E2|]. cbn [names]. cbn [w_names start] in S2.
      apply final_ok_set; [exact Nd2| |exact Hp].
      intros y. rewrite S2. split.
      + intros [[Hy Hn]|[a [Ha [Hfa ->]]]].
        * eapply notF_base; eauto.
        * apply (F_char _ a Hfr Ha) in Hfa. destruct Hfa as [m [Hm ->]]. unfold Fl. rewrite unF_app. auto.
      + intros Hy. destruct (in_dec string_dec y mv) as [Hm|Hm].
        * right. exists (Fl y). destruct (HF y Hm). split; auto. split; [apply isF_app|symmetry; apply unF_app].
        * left. split; auto. apply base_notF, Hy.
  Qed.

  Theorem flip_names_param : proto_ok _ _ (flip_step mv) flip_complete base (flip_start base mv).
  Proof. exact (proto_ok_invariant _ _ _ _ FInv _ _ flip_step_inv flip_complete_ok flip_start_inv). Qed.
End FlipParam.

Theorem flip_table_param : forall l i mv, forallb inst_wf l = true -> In i l -> i_kind i = KFlip mv ->
  proto_ok _ _ (flip_step mv) flip_complete (i_expected i) (flip_start (i_base i) mv).
Proof.
  intros l i mv H Hi Hk. rewrite forallb_forall in H. specialize (H i Hi).
  unfold inst_wf in H. rewrite Hk in H. apply andb_true_iff in H. destruct H as [Hw He].
  apply nl_eqb_eq in He. rewrite He. apply flip_names_param. exact Hw.
Qed.

(* layer 2 (guarded name lists) is exactly layer 1 (object list + dict) while the guards hold *)

Definition WFres (s : NameProtocol.res) : Prop :=
  NoDup (map fst (r_atoms s)) /\
  (forall n i, r_map s n = Some i <-> In (i, n) (r_atoms s)) /\
  (forall i n, In (i, n) (r_atoms s) -> i < r_fresh s).

Lemma nodup_snd : forall (l : list (nat * string)), NoDup (map fst l) ->
  (forall i j n, In (i, n) l -> In (j, n) l -> i = j) -> NoDup (map snd l).
Proof.
  induction l as [|[i n] l IH]; cbn; intros Hn Hf; constructor.
  - intros Hin. apply in_map_iff in Hin. destruct Hin as [[j m] [E Hj]]. cbn in E. subst m.
    assert (i = j) by (apply (Hf i j n); auto). subst j.
    inversion Hn; subst. apply H1. apply in_map_iff. exists (i, n). auto.
  - inversion Hn; subst. apply IH; auto. intros a b m Ha Hb. apply (Hf a b m); auto.
Qed.

Lemma WFres_names_nodup : forall s, WFres s -> NoDup (res_names s).
Proof.
  intros s [Hn [Hm _]]. apply nodup_snd; auto. intros i j n Hi Hj.
  apply Hm in Hi. apply Hm in Hj. congruence.
Qed.

Lemma WFres_has : forall s n, WFres s -> (res_has n s = true <-> In n (res_names s)).
Proof.
  intros s n [_ [Hm _]]. unfold res_has, res_names. split.
  - destruct (r_map s n) as [i|] eqn:E; [|discriminate]. intros _. apply Hm in E.
    apply in_map_iff. exists (i, n). auto.
  - intros Hin. apply in_map_iff in Hin. destruct Hin as [[i m] [E Hi]]. cbn in E. subst m.
    apply Hm in Hi. rewrite Hi. reflexivity.
Qed.

Lemma WFres_empty : WFres res_empty.
Proof.
  split; [constructor|]. split.
  - intros n i. cbn. split; [discriminate|tauto].
  - intros i n [].
Qed.

Lemma create_ok : forall s n, WFres s -> ~ In n (res_names s) ->
  WFres (res_create n s) /\ res_names (res_create n s) = (res_names s ++ [n])%list.
Proof.
  intros s n [Hn [Hm Hf]] Hni. split; [|unfold res_names, res_create; cbn; rewrite map_app; reflexivity].
  split; [|split]; cbn [res_create r_atoms r_map r_fresh].
  - rewrite map_app. cbn. apply NoDup_app_last; auto.
    intros Hin. apply in_map_iff in Hin. destruct Hin as [[i m] [E Hi]]. cbn in E. subst i.
    apply Hf in Hi. lia.
  - intros n' i. unfold upd. rewrite in_app_iff. cbn. destruct (String.eqb n' n) eqn:E.
    + apply String.eqb_eq in E. subst n'. split.
      * intros H. inversion H; subst. auto.
      * intros [Hi|[Hi|[]]]; [|inversion Hi; auto].
        exfalso. apply Hni. apply in_map_iff. exists (i, n). auto.
    + apply String.eqb_neq in E. rewrite Hm. split; auto.
      intros [Hi|[Hi|[]]]; auto. inversion Hi; subst. congruence.
  - intros i m Hi. apply in_app_or in Hi. destruct Hi as [Hi|[Hi|[]]].
    + apply Hf in Hi. lia.
    + inversion Hi; subst. lia.
Qed.

Lemma split_atom : forall (l : list (nat * string)) i n, NoDup (map fst l) -> NoDup (map snd l) -> In (i, n) l ->
  exists l1 l2, l = (l1 ++ (i, n) :: l2)%list /\ forall j m, In (j, m) (l1 ++ l2) -> j <> i /\ m <> n.
Proof.
  intros l i n Hf Hs Hi. destruct (in_split _ _ Hi) as [l1 [l2 ->]]. exists l1, l2. split; [reflexivity|].
  rewrite map_app in Hf, Hs. apply NoDup_remove_2 in Hf, Hs. rewrite <- map_app in Hf, Hs.
  intros j m Hj. split; intros ->; [apply Hf|apply Hs]; apply in_map_iff; eexists; (split; [|exact Hj]); reflexivity.
Qed.

Lemma remove_id_mid : forall i n (l1 l2 : list (nat * string)), (forall j m, In (j, m) l1 -> j <> i) ->
  remove_id i (l1 ++ (i, n) :: l2) = (l1 ++ l2)%list.
Proof.
  induction l1 as [|[j m] l1 IH]; cbn; intros l2 H; [rewrite Nat.eqb_refl; reflexivity|].
  destruct (Nat.eqb_spec j i) as [E|_]; [destruct (H j m (or_introl eq_refl) E)|]. f_equal. apply IH. eauto.
Qed.

Lemma rename_id_mid : forall i o n (l1 l2 : list (nat * string)), (forall j m, In (j, m) (l1 ++ l2) -> j <> i) ->
  map (fun a => if Nat.eqb (fst a) i then (i, n) else a) (l1 ++ (i, o) :: l2) = (l1 ++ (i, n) :: l2)%list.
Proof.
  intros i o n l1 l2 H.
  assert (Hid : forall l : list (nat * string), (forall j m, In (j, m) l -> j <> i) ->
                map (fun a => if Nat.eqb (fst a) i then (i, n) else a) l = l).
  { induction l as [|[j m] l IH]; cbn; intros Hl; [reflexivity|].
    destruct (Nat.eqb_spec j i) as [E|_]; [destruct (Hl j m (or_introl eq_refl) E)|]. f_equal. apply IH. eauto. }
  rewrite map_app. cbn. rewrite Nat.eqb_refl, !Hid; [reflexivity| |]; intros j m Hj; apply (H j m), in_or_app; auto.
Qed.

Lemma replace_first_app_mid : forall o n (k r : nl), ~ In o k -> replace_first o n (k ++ o :: r) = (k ++ n :: r)%list.
Proof.
  induction k as [|z k IH]; cbn; intros r H.
  - rewrite String.eqb_refl. reflexivity.
  - destruct (String.eqb_spec o z) as [->|_]; [tauto|]. f_equal. apply IH. tauto.
Qed.

Lemma remove_ok : forall s n, WFres s -> In n (res_names s) ->
  exists s', res_remove n s = Some s' /\ WFres s' /\ res_names s' = remove_first n (res_names s).
Proof.
  intros s n Hw Hin. pose proof (WFres_names_nodup s Hw) as Hnn. destruct Hw as [Hn [Hm Hf]].
  unfold res_names in *. apply in_map_iff in Hin. destruct Hin as [[i m] [E Hi]]. cbn in E. subst m.
  unfold res_remove. rewrite (proj2 (Hm n i) Hi). eexists. split; [reflexivity|]. unfold WFres. cbn [r_atoms r_map r_fresh].
  destruct (split_atom _ i n Hn Hnn Hi) as [l1 [l2 [El Hoth]]]. rewrite El in *.
  rewrite remove_id_mid by (intros j m Hj; apply (Hoth j m), in_or_app; auto).
  split; [split; [|split]|].
  - rewrite map_app in *. exact (NoDup_remove_1 _ _ _ Hn).
  - intros n' j. unfold upd. destruct (String.eqb_spec n' n) as [->|Hne].
    + split; [discriminate|]. intros Hj. destruct (Hoth j n Hj) as [_ H]. congruence.
    + rewrite Hm, in_elt_iff. split; [intros [H|H]; [inversion H; congruence|exact H]|auto].
  - intros j m Hj. apply (Hf j m), in_elt_iff. auto.
  - rewrite !map_app. cbn [map snd]. symmetry. apply remove_first_app_mid.
    intros Hc. apply in_map_iff in Hc. destruct Hc as [[j m] [E Hj]]. cbn in E. subst m.
    destruct (Hoth j n) as [_ H]; [apply in_or_app; auto|congruence].
Qed.

Lemma rename_ok : forall s o n, WFres s -> In o (res_names s) -> ~ In n (res_names s) ->
  exists s', res_rename o n s = Some s' /\ WFres s' /\ res_names s' = replace_first o n (res_names s).
Proof.
  intros s o n Hw Hin Hni. pose proof (WFres_names_nodup s Hw) as Hnn. destruct Hw as [Hn [Hm Hf]].
  unfold res_names in *. apply in_map_iff in Hin. destruct Hin as [[i m] [E Hi]]. cbn in E. subst m.
  unfold res_rename. rewrite (proj2 (Hm o i) Hi). eexists. split; [reflexivity|]. unfold WFres. cbn [r_atoms r_map r_fresh].
  destruct (split_atom _ i o Hn Hnn Hi) as [l1 [l2 [El Hoth]]]. rewrite El in *.
  rewrite rename_id_mid by (intros j m Hj; apply (Hoth j m Hj)).
  assert (Hon : o <> n) by (intros ->; apply Hni, in_map_iff; exists (i, n); split; [reflexivity|apply in_elt]).
  assert (Hnew : forall j, ~ In (j, n) (l1 ++ l2)).
  { intros j Hj. apply Hni, in_map_iff. exists (j, n). split; [reflexivity|apply in_elt_iff; auto]. }
  split; [split; [|split]|].
  - rewrite map_app in *. exact Hn.
  - intros n' j. unfold upd. rewrite in_elt_iff.
    destruct (String.eqb_spec n' o) as [->|Hno].
    + split; [discriminate|]. intros [H|H]; [inversion H; congruence|]. destruct (Hoth j o H) as [_ Ho]. congruence.
    + destruct (String.eqb_spec n' n) as [->|Hnn'].
      * split; [intros H; inversion H; auto|]. intros [H|H]; [inversion H; reflexivity|destruct (Hnew j H)].
      * rewrite Hm, in_elt_iff. split; (intros [H|H]; [inversion H; congruence|auto]).
  - intros j m Hj. apply in_elt_iff in Hj. destruct Hj as [Hj|Hj]; [inversion Hj; subst|]; eapply Hf, in_elt_iff; eauto.
  - rewrite !map_app. cbn [map snd]. symmetry. apply replace_first_app_mid.
    intros Hc. apply in_map_iff in Hc. destruct Hc as [[j m] [E Hj]]. cbn in E. subst m.
    destruct (Hoth j o) as [_ H]; [apply in_or_app; auto|congruence].
Qed.

Lemma keyerror_ok : forall s n x, WFres s -> ~ In n (res_names s) ->
  res_remove n s = None /\ res_rename n x s = None.
Proof.
  intros s n x Hw Hni. pose proof Hw as [_ [Hm _]]. unfold res_remove, res_rename.
  destruct (r_map s n) as [i|] eqn:E; auto. exfalso. apply Hni. apply Hm in E.
  apply in_map_iff. exists (i, n). auto.
Qed.

Definition rop_of (o : op) : rop :=
  match o with Create n => RCreate n | Remove n => RRemove n | Rename a b => RRename a b end.

Fixpoint apply_ops (w : W) (l : list op) : option W :=
  match l with
  | [] => Some w
  | o :: r => match apply_op w o with Some w' => apply_ops w' r | None => None end
  end.

(* operation sequences: as long as every guard of the name-list layer holds, the
   object-list + dict layer does not raise, its dict and list stay consistent (WFres:
   no duplicate objects, dict = exactly the (name, object) pairs of the list, hence no
   duplicate names and has_atom = membership), and both layers list the same names in
   the same order *)
Theorem layers_agree : forall ops s w w', WFres s -> res_names s = w_names w ->
  apply_ops w ops = Some w' ->
  exists s', res_run s (map rop_of ops) = Some s' /\ WFres s' /\ res_names s' = w_names w' /\
             NoDup (w_names w') /\ (forall n, res_has n s' = mem n (w_names w')).
Proof.
  induction ops as [|o ops IH]; intros s w w' Hw Hn Ha; cbn in Ha.
  - inversion Ha; subst. exists s. cbn. split; auto. split; auto. split; auto. split.
    + rewrite <- Hn. apply WFres_names_nodup; auto.
    + intros n. apply eq_iff_eq_true. rewrite mem_In, <- Hn. apply WFres_has, Hw.
  - destruct (apply_op w o) as [w1|] eqn:E1; [|discriminate].
    destruct o as [n|n|a b]; cbn [apply_op] in E1; cbn [map rop_of res_run].
    + unfold cr in E1. destruct (mem n (w_names w)) eqn:Em; [discriminate|]. inversion E1; subst w1. clear E1.
      assert (Hni : ~ In n (res_names s)) by (rewrite Hn; intros H; apply mem_In in H; congruence).
      destruct (create_ok s n Hw Hni) as [Hw1 Hn1]. eapply (IH _ _ _ Hw1); [|exact Ha]. cbn [w_names]. rewrite Hn1, Hn. reflexivity.
    + unfold rm in E1. destruct (mem n (w_names w)) eqn:Em; [|discriminate]. inversion E1; subst w1. clear E1.
      assert (Hin : In n (res_names s)) by (rewrite Hn; apply mem_In; auto).
      destruct (remove_ok s n Hw Hin) as [s1 [R1 [Hw1 Hn1]]]. rewrite R1. eapply (IH _ _ _ Hw1); [|exact Ha].
      cbn [w_names]. rewrite Hn1, Hn. reflexivity.
    + unfold rn in E1. destruct (mem a (w_names w)) eqn:Ea; [|discriminate].
      destruct (mem b (w_names w)) eqn:Eb; [discriminate|]. cbn in E1. inversion E1; subst w1. clear E1.
      assert (Hin : In a (res_names s)) by (rewrite Hn; apply mem_In; auto).
      assert (Hni : ~ In b (res_names s)) by (rewrite Hn; intros H; apply mem_In in H; congruence).
      destruct (rename_ok s a b Hw Hin Hni) as [s1 [R1 [Hw1 Hn1]]]. rewrite R1. eapply (IH _ _ _ Hw1); [|exact Ha].
      cbn [w_names]. rewrite Hn1, Hn. reflexivity.
Qed.

Lemma hyd_not_pseudo : forall x, is_hyd x = true -> is_pseudo x = false.
Proof.
  intros x Hh. unfold is_pseudo.
  destruct (String.eqb x "N+1") eqn:Ea; [apply String.eqb_eq in Ea; subst; cbn in Hh; discriminate|].
  destruct (String.eqb x "C-1") eqn:Eb; [apply String.eqb_eq in Eb; subst; cbn in Hh; discriminate|]. reflexivity.
Qed.

Lemma phos_alias_false : forall x l, mem "OP1" l = false -> mem "OP2" l = false -> phos_alias x l = false.
Proof. intros x l H1 H2. unfold phos_alias. rewrite H1, H2, !andb_false_r. reflexivity. Qed.

Section RepairProofs.
  Variable ref : nl.
  Let inref (a : string) : bool := mem a ref.
  Variables feasv hfeasv : string -> nl -> bool.
  Hypothesis feasv_true : forall a l, feasv a l = true.
  Hypothesis hfeasv_true : forall a l, hfeasv a l = true.

  Lemma keep_alias_false : forall a cur, mem "OP1" cur = false -> mem "OP2" cur = false -> keep_alias a cur = false.
  Proof. intros a cur H1 H2. unfold keep_alias. rewrite H1, H2. rewrite !andb_false_r. reflexivity. Qed.

  Lemma drop_extras_spec : forall todo kept log logged,
    NoDup (kept ++ todo) -> mem "OP1" (kept ++ todo) = false -> mem "OP2" (kept ++ todo) = false ->
    exists w', drop_extras ref todo (mkW (kept ++ todo) log) logged =
                 Some (w', (logged ++ filter (fun a => negb (inref a)) todo)%list) /\
               w_names w' = (kept ++ filter inref todo)%list.
  Proof.
    induction todo as [|a r IH]; intros kept log logged Hn H1 H2.
    - cbn. rewrite !app_nil_r. eexists. split; reflexivity.
    - cbn [drop_extras]. cbn [w_names]. rewrite keep_alias_false by auto. cbn [filter]. unfold inref at 1 3. fold (inref a).
      destruct (inref a) eqn:Ei; cbn [negb].
      + replace (kept ++ a :: r)%list with ((kept ++ [a]) ++ r)%list in * by (rewrite <- app_assoc; reflexivity).
        destruct (IH (kept ++ [a])%list log logged Hn H1 H2) as [w' [E' N']].
        exists w'. rewrite E'. split; auto. rewrite N'. rewrite <- app_assoc. reflexivity.
      + assert (Hni : ~ In a kept).
        { apply NoDup_remove_2 in Hn. intros Hc. apply Hn. apply in_or_app. auto. }
        unfold rm. cbn [w_names w_log].
        assert (Hm : mem a (kept ++ a :: r) = true) by (apply mem_In; apply in_or_app; right; cbn; auto).
        rewrite Hm. rewrite remove_first_app_mid by auto.
        assert (Hn' : NoDup (kept ++ r)) by (apply NoDup_remove_1 in Hn; auto).
        assert (Hsub : forall x, mem x (kept ++ a :: r) = false -> mem x (kept ++ r) = false).
        { intros x. rewrite !mem_false, !in_app_iff. cbn. tauto. }
        destruct (IH kept (log ++ [Remove a])%list (logged ++ [a])%list Hn' (Hsub _ H1) (Hsub _ H2)) as [w' [E' N']].
        exists w'. rewrite E'. split; auto. rewrite <- app_assoc. reflexivity.
  Qed.

  Lemma rebuild_always : forall missing fuel n seen w logged,
    List.length missing < fuel -> NoDup (w_names w ++ missing) ->
    exists w', rebuild feasv fuel n missing seen w logged = RDone w' logged /\
               w_names w' = (w_names w ++ missing)%list.
  Proof.
    induction missing as [|a r IH]; intros fuel n seen w logged Hf Hn.
    - destruct fuel; [cbn in Hf; lia|]. cbn. rewrite app_nil_r. eexists. split; reflexivity.
    - destruct fuel; [cbn in Hf; lia|]. cbn [rebuild]. rewrite feasv_true.
      destruct (cr_spec a w) as [w1 [E1 N1]].
      { apply NoDup_remove_2 in Hn. intros Hc. apply Hn. apply in_or_app. auto. }
      rewrite E1. destruct (IH fuel n seen w1 logged) as [w' [E' N']].
      + cbn in Hf. lia.
      + rewrite N1. rewrite <- app_assoc. exact Hn.
      + exists w'. split; auto. rewrite N', N1. rewrite <- app_assoc. reflexivity.
  Qed.

  Lemma add_hydrogens_spec : forall ssb w, NoDup (w_names w) ->
    exists w', add_hydrogens ref hfeasv ssb w = Some w' /\ NoDup (w_names w') /\
      forall x, In x (w_names w') <-> In x (w_names w) \/
                                      (In x ref /\ is_hyd x = true /\ ~ (ssb = true /\ x = "HG"%string)).
  Proof.
    intros ssb w Hn.
    destruct (loop_spec (fun r w' => if is_hyd r && negb (has r w') && negb (ssb && String.eqb r "HG")
                                     then (if hfeasv r (w_names w') then cr r w' else Some w') else Some w')
                (fun _ _ => False) (fun r y => y = r /\ is_hyd r = true /\ ~ (ssb = true /\ r = "HG"%string))
                (fun _ w' => NoDup (w_names w')))
      with (todo := ref) (w := w) as [w' [E' [Nd' S']]]; [|intros r rest w0 _ b y _ _ []|exact Hn|].
    - intros r rest w0 Hn0.
      destruct (is_hyd r && negb (has r w0) && negb (ssb && String.eqb r "HG")) eqn:Ec.
      + rewrite hfeasv_true. rewrite !andb_true_iff, !negb_true_iff in Ec. destruct Ec as [[E1 E2] E3].
        apply has_false in E2. destruct (cr_spec r w0 E2) as [w1 [C1 N1]]. exists w1. split; [exact C1|].
        rewrite N1. split; [apply NoDup_app_last; auto|].
        intros y. rewrite in_app_iff. cbn [In]. split.
        * intros [H|[<-|[]]]; [left; tauto|]. right. split; [reflexivity|]. split; [exact E1|].
          intros [-> ->]. discriminate.
        * intros [[H _]|[-> _]]; auto.
      + exists w0. split; [reflexivity|]. split; [exact Hn0|].
        intros y. split; [intros H; left; tauto|]. intros [[H _]|[-> [H1 H2]]]; [exact H|].
        rewrite H1 in Ec. cbn [andb] in Ec. apply andb_false_iff in Ec. destruct Ec as [Ec|Ec]; apply negb_false_iff in Ec.
        * apply has_In, Ec.
        * apply andb_true_iff in Ec. destruct Ec as [-> Ec]. apply String.eqb_eq in Ec. exfalso. auto.
    - exists w'. split; [exact E'|]. split; [exact Nd'|]. intros x. rewrite S'. split.
      + intros [[H _]|[a [Ha [-> H]]]]; auto.
      + intros [H|[H1 H2]]; [left; split; [exact H|intros [a [_ []]]]|right; exists x; auto].
  Qed.

  Lemma missing_heavy_In : forall ns x, mem "OP1" ns = false -> mem "OP2" ns = false ->
    (In x (missing_heavy ref ns) <-> In x ref /\ is_hyd x = false /\ is_pseudo x = false /\ ~ In x ns).
  Proof.
    intros ns x H1 H2. unfold missing_heavy. rewrite filter_In, (phos_alias_false x ns H1 H2). cbn [negb].
    rewrite andb_true_r, !andb_true_iff, !negb_true_iff, mem_false. tauto.
  Qed.

  Lemma add_hydrogens_complete : forall ns ssb w,
    NoDup (w_names w) -> mem "OP1" ns = false -> mem "OP2" ns = false ->
    (forall x, In x (w_names w) <-> (In x ns /\ In x ref) \/ In x (missing_heavy ref ns)) ->
    (forall x, In x ns -> is_pseudo x = false) ->
    exists w', add_hydrogens ref hfeasv ssb w = Some w' /\ NoDup (w_names w') /\
      forall x, In x (w_names w') <->
                In x ref /\ is_pseudo x = false /\ ~ (ssb = true /\ x = "HG"%string /\ ~ In x ns).
  Proof.
    intros ns ssb w Hn H1 H2 Hw Hps. destruct (add_hydrogens_spec ssb w Hn) as [w' [E' [Nd' S']]].
    exists w'. split; [exact E'|]. split; [exact Nd'|].
    intros x. rewrite S', Hw, (missing_heavy_In ns x H1 H2). split.
    - intros [[[Hx Hm]|[Hx [Hh [Hp Hni]]]]|[Hx [Hh Hs]]].
      + split; auto. split; auto. intros [_ [_ Hc]]. auto.
      + split; auto. split; auto. intros [_ [-> _]]. cbn in Hh. discriminate.
      + split; auto. split; [apply hyd_not_pseudo, Hh|]. intros [Hs1 [Hs2 _]]. apply Hs. auto.
    - intros [Hx [Hp Hs]]. destruct (in_dec string_dec x ns) as [Hi|Hi]; [left; left; split; assumption|].
      destruct (is_hyd x) eqn:Eh; [|left; right; auto]. right. split; auto. split; auto. intros [Hs1 Hs2]. apply Hs. auto.
  Qed.

  (* for every residue (any distinct names, any extra or missing atoms, no OP1/OP2): if the
     rebuild oracles never fail, repair_heavy logs and deletes exactly the names outside the
     reference, never raises, and after add_hydrogens the residue holds exactly the
     reference's atoms (pseudo atoms excepted; HG of a bridged cysteine is not built) *)
  Theorem repair_add_complete : forall ns ssb,
    NoDup ns -> NoDup ref -> mem "OP1" ns = false -> mem "OP2" ns = false ->
    (forall x, In x ns -> is_pseudo x = false) ->
    exists w logged, repair_heavy ref feasv true ns = RDone w logged /\
      logged = filter (fun a => negb (mem a ref)) ns /\
      exists w', add_hydrogens ref hfeasv ssb w = Some w' /\ NoDup (w_names w') /\
        forall x, In x (w_names w') <->
                  In x ref /\ is_pseudo x = false /\ ~ (ssb = true /\ x = "HG"%string /\ ~ In x ns).
  Proof.
    intros ns ssb Hn Hr H1 H2 Hps. unfold repair_heavy. cbn [negb].
    destruct (drop_extras_spec ns [] [] []) as [w1 [E1 N1]]; auto.
    cbn [app] in E1, N1. rewrite E1.
    set (miss := missing_heavy ref ns).
    assert (Hnd2 : NoDup (w_names w1 ++ miss)).
    { rewrite N1. apply NoDup_app_intro.
      - apply NoDup_filter. auto.
      - unfold miss, missing_heavy. apply NoDup_filter. auto.
      - intros x Hx Hm. apply filter_In in Hx. apply missing_heavy_In in Hm; tauto. }
    destruct (rebuild_always miss (repair_fuel (List.length miss)) (List.length miss) [] w1
                (filter (fun a => negb (inref a)) ns)) as [w2 [E2 N2]]; auto.
    { unfold repair_fuel. lia. }
    fold miss. rewrite E2. exists w2. eexists. split; [reflexivity|]. split; [reflexivity|].
    apply add_hydrogens_complete; auto; [rewrite N2; auto|].
    intros x. rewrite N2, N1, in_app_iff, filter_In. unfold inref. rewrite mem_In. reflexivity.
  Qed.
End RepairProofs.

Lemma rtemplates_meaning : forall l t, rtemplates_ok l = true -> In t l ->
  rebuild_from_backbone_ok t = true /\ rebuild_single_ok t = true.
Proof.
  intros l t H Ht. unfold rtemplates_ok in H. rewrite forallb_forall in H. specialize (H t Ht).
  apply andb_true_iff in H. exact H.
Qed.

Definition seteq (a b : nl) : Prop := NoDup a /\ NoDup b /\ forall x, In x a <-> In x b.

Lemma seteq_remove_first : forall a b x, seteq a b -> seteq (remove_first x a) (remove_first x b).
Proof.
  intros a b x [Ha [Hb H]]. split; [apply NoDup_remove_first; auto|]. split; [apply NoDup_remove_first; auto|].
  intros y. rewrite !In_remove_first by auto. rewrite H. tauto.
Qed.

Lemma seteq_cleanup : forall cl a b, seteq a b -> seteq (cleanup_names cl a) (cleanup_names cl b).
Proof.
  intros [c|] a b H; cbn [cleanup_names]; auto. rewrite !(mem_ext a b (proj2 (proj2 H))).
  destruct (mem (c_h1 c) b && mem (c_h2 c) b); auto. apply seteq_remove_first; auto.
Qed.

Lemma seteq_his : forall his a b, seteq a b -> seteq (his_names his a) (his_names his b).
Proof.
  intros [[|]|] a b H; cbn [his_names]; auto; rewrite (mem_ext a b (proj2 (proj2 H)));
    (destruct (mem _ b); [apply seteq_remove_first|]; exact H).
Qed.

(* HydrogenRoutines.cleanup and HIS.set_state delete at most one atom, a hydrogen *)
Definition drops_hyd (l l' : nl) : Prop := l' = l \/ exists n, is_hyd n = true /\ l' = remove_first n l.

Lemma cleanup_drops : forall cl l, (forall c, cl = Some c -> is_hyd (c_h1 c) = true) -> drops_hyd l (cleanup_names cl l).
Proof.
  intros [c|] l H; cbn [cleanup_names]; [|left; reflexivity].
  destruct (mem (c_h1 c) l && mem (c_h2 c) l); [right; exists (c_h1 c); auto|left; reflexivity].
Qed.

Lemma his_drops : forall his l, drops_hyd l (his_names his l).
Proof.
  intros [[|]|] l; cbn [his_names]; [destruct (mem "HE2" l)|destruct (mem "HD1" l)|]; try (left; reflexivity);
    right; eexists; (split; [|reflexivity]); reflexivity.
Qed.

Lemma drops_hyd_spec : forall l l', drops_hyd l l' ->
  incl l' l /\ (forall x, In x l -> is_hyd x = false -> In x l').
Proof.
  intros l l' [->|[n [Hh ->]]]; [split; [apply incl_refl|auto]|].
  split; [intros x; apply remove_first_incl|]. intros x Hx Hf. apply remove_first_keeps; [exact Hx|]. intros ->. congruence.
Qed.

Lemma alc_expected_set : forall h l x, In x (alc_expected h l) <-> In x l \/ In x [h].
Proof.
  intros h l x. unfold alc_expected. rewrite in_app_iff. split.
  - intros [H|H]; [left; exact (remove_first_incl h l x H)|right; exact H].
  - intros [H|H]; [|auto]. destruct (string_dec x h) as [->|Hne]; [right; left; reflexivity|].
    left. apply remove_first_keeps; assumption.
Qed.

Lemma alc_expected_nodup : forall h l, NoDup l -> NoDup (alc_expected h l).
Proof.
  intros h l Hn. unfold alc_expected. apply NoDup_app_last; [apply NoDup_remove_first; auto|].
  rewrite In_remove_first by auto. tauto.
Qed.

Lemma wat_expected_nodup : forall l, NoDup l -> NoDup (wat_expected l).
Proof.
  intros l Hn. unfold wat_expected.
  destruct (mem "H1" l) eqn:E1; destruct (mem "H2" l) eqn:E2; cbn [app]; rewrite ?app_nil_r; auto.
  - apply NoDup_app_last; auto. apply mem_false; auto.
  - apply NoDup_app_last; auto. apply mem_false; auto.
  - replace (l ++ ["H1"%string; "H2"%string])%list with ((l ++ ["H1"%string]) ++ ["H2"%string])%list
      by (rewrite <- app_assoc; reflexivity).
    apply NoDup_app_last.
    + apply NoDup_app_last; auto. apply mem_false; auto.
    + intros H. apply in_app_or in H. destruct H as [H|[H|[]]]; [|discriminate].
      apply mem_false in E2. auto.
Qed.

Definition added_by (k : pkind) : nl :=
  match k with PAlc h => [h] | PWat => ["H1"; "H2"]%string | _ => [] end.

Lemma expected_of_set : forall k R l, wf_kind k R = true -> NoDup l ->
  NoDup (expected_of k l) /\ forall x, In x (expected_of k l) <-> In x l \/ In x (added_by k).
Proof.
  intros k R l Hk Hn. destruct k as [|mv|h| |c o lf]; cbn [expected_of added_by]; [| | | |discriminate].
  - split; [exact Hn|]. intros x. cbn. tauto.
  - split; [exact Hn|]. intros x. cbn. tauto.
  - split; [apply alc_expected_nodup, Hn|]. apply alc_expected_set.
  - split; [apply wat_expected_nodup, Hn|apply wat_expected_set].
Qed.

Lemma after_ensures : forall (P : nl -> Prop) o k,
  ensures (fun s => ensures (fun s' => P (names s')) (k s)) o ->
  match after o k with POk l' => P l' | PDisabled => True | PErr => False end.
Proof. intros P [s ops| |] k H; cbn in *; [destruct (k s); exact H|exact I|exact H]. Qed.

Lemma proto_ok_stage : forall (L C : Type) (step : pst -> L -> outcome) (complete : pst -> C -> outcome) E st ls c,
  proto_ok L C step complete E st ->
  match st with
  | Next s0 _ => match after (run L step s0 ls) (fun s => complete s c) with
                 | POk l' => final_ok E l' | PDisabled => True | PErr => False end
  | Disabled => True
  | Error => False
  end.
Proof.
  intros L C step complete E st ls c H. apply proto_ok_ensures in H. destruct st as [s0 o| |]; [|exact H|exact H].
  cbn [ensures] in H. apply after_ensures. refine (ensures_mono _ _ _ _ (H ls)). intros s Hs. exact (Hs c).
Qed.

Lemma proto_stage_good : forall k ls l R,
  NoDup l -> (forall x, In x l <-> In x R) -> (forall x, In x l -> placeholder x = false) ->
  wf_kind k R = true ->
  match proto_stage k ls l with
  | POk l' => final_ok (expected_of k l) l'
  | PDisabled => True
  | PErr => False
  end.
Proof.
  intros k ls l R Hn Hs Hp Hw.
  assert (Hnb : nodupb l = true) by (apply nodupb_NoDup; auto).
  assert (Hpb : forallb (fun x => negb (placeholder x)) l = true).
  { apply forallb_forall. intros x Hx. rewrite Hp; auto. }
  destruct k as [|mv|h| |c o lf]; cbn [proto_stage wf_kind expected_of] in *.
  - split; auto. split; [tauto|auto].
  - destruct ls as [|xs|xs|xs|xs bb]; auto. apply andb_true_iff in Hw. destruct Hw as [W1 W2].
    assert (Hwf : wf_flip l mv = true).
    { unfold wf_flip. rewrite Hnb, W1, Hpb. cbn. rewrite andb_true_r. apply forallb_forall. intros m Hm.
      rewrite forallb_forall in W2. apply mem_In. apply Hs. apply mem_In. auto. }
    pose proof (proto_ok_stage _ _ _ _ _ _ xs tt (flip_names_param l mv Hwf)) as H.
    destruct (flip_start l mv); auto.
  - destruct ls as [|xs|xs|xs|xs bb]; auto.
    assert (Hwf : wf_alc h l = true) by (unfold wf_alc; rewrite Hnb, Hpb, Hw; reflexivity).
    pose proof (proto_ok_stage _ _ _ _ _ _ xs tt (alc_names_param h l Hwf)) as H.
    destruct (alc_start h l); auto.
  - destruct ls as [|xs|xs|xs|xs bb]; auto.
    assert (Hwf : wf_wat l = true).
    { unfold wf_wat. rewrite Hnb, Hpb. cbn [andb].
      rewrite !(mem_ext l R Hs). exact Hw. }
    pose proof (proto_ok_stage _ _ _ _ _ _ xs tt (wat_names_param l Hwf)) as H.
    unfold wat_start in *. exact H.
  - discriminate.
Qed.

Section PipelineProofs.
  Variable ref : nl.
  Variables feas hfeas : string -> nl -> bool.
  Variable entry : string -> bool.
  Hypothesis feas_true : forall a l, feas a l = true.
  Hypothesis hfeas_true : forall a l, hfeas a l = true.

  Lemma wf_input_parts : forall l0 am, wf_input ref l0 am = true ->
    NoDup l0 /\ NoDup ref /\ mem "OP1" l0 = false /\ mem "OP2" l0 = false /\
    (forall x, In x l0 -> is_pseudo x = false) /\ (forall x, In x ref -> placeholder x = false) /\
    (am = true \/ ((forall x, In x l0 -> In x ref) /\ missing_heavy ref l0 = [])).
  Proof.
    intros l0 am H. unfold wf_input in H. rewrite !andb_true_iff, !negb_true_iff, !nodupb_NoDup in H.
    destruct H as [[[[[[H1 H2] H3] H4] H5] H6] H7].
    split; [exact H1|]. split; [exact H2|]. split; [exact H3|]. split; [exact H4|].
    split; [apply forallb_negb, H5|]. split; [apply forallb_negb, H6|].
    destruct am; [left; reflexivity|right]. cbn in H7. apply andb_true_iff in H7. destruct H7 as [Ha Hb]. split.
    - intros x Hx. rewrite forallb_forall in Ha. apply mem_In, Ha, Hx.
    - destruct (missing_heavy ref l0); [reflexivity|discriminate].
  Qed.

  Lemma ref_atoms_In : forall ssb l0 x, In x (ref_atoms ref ssb l0) <->
    In x ref /\ is_pseudo x = false /\ ~ (ssb = true /\ x = "HG"%string /\ ~ In x l0).
  Proof.
    intros ssb l0 x. unfold ref_atoms. rewrite filter_In, andb_true_iff, !negb_true_iff. split.
    - intros [Hx [Hp Hc]]. split; auto. split; auto. intros [-> [-> Hn]].
      apply mem_false in Hn. rewrite Hn in Hc. cbn in Hc. discriminate.
    - intros [Hx [Hp Hc]]. split; auto. split; auto.
      destruct ssb; cbn; auto. destruct (String.eqb x "HG") eqn:E; cbn; auto.
      apply String.eqb_eq in E. subst. destruct (mem "HG" l0) eqn:Em; cbn; auto.
      exfalso. apply Hc. split; auto. split; auto. apply mem_false. auto.
  Qed.

  Lemma stage12 : forall l0 am ssb, wf_input ref l0 am = true ->
    exists w1 lg w3, repair_heavy ref feas am l0 = RDone w1 lg /\
      add_hydrogens ref hfeas ssb w1 = Some w3 /\ NoDup (w_names w3) /\
      (forall x, In x (w_names w3) <-> In x (ref_atoms ref ssb l0)) /\
      lg = (if am then filter (fun a => negb (mem a ref)) l0 else []).
  Proof.
    intros l0 am ssb Hw. destruct (wf_input_parts l0 am Hw) as [Hn [Hr [H1 [H2 [Hps [Hph Hcase]]]]]].
    destruct am.
    - destruct (repair_add_complete ref feas hfeas feas_true hfeas_true l0 ssb Hn Hr H1 H2 Hps)
        as [w1 [lg [E1 [Elg [w3 [E3 [Nd3 S3]]]]]]].
      exists w1, lg, w3. split; auto. split; auto. split; auto. split; auto.
      intros x. rewrite S3, ref_atoms_In. tauto.
    - destruct Hcase as [Hc|[Hsub Hmiss]]; [discriminate|].
      unfold repair_heavy. cbn [negb].
      destruct (add_hydrogens_complete ref hfeas hfeas_true l0 ssb (mkW l0 [])) as [w3 [E3 [Nd3 S3]]]; auto.
      { intros x. rewrite Hmiss. cbn. split; [auto|]. intros [[H _]|[]]. exact H. }
      exists (mkW l0 []), [], w3. split; auto. split; [exact E3|]. split; auto. split; auto.
      intros x. rewrite S3, ref_atoms_In. reflexivity.
  Qed.

  Definition pipeline_ok (l0 : nl) (am : bool) (Expected : nl) (r : pres) : Prop :=
    match r with
    | PRes final written un lg =>
        NoDup final /\ (forall x, In x final <-> In x Expected) /\
        written = final /\ un = [] /\ (forall x, In x final -> placeholder x = false) /\
        lg = (if am then filter (fun a => negb (mem a ref)) l0 else []) /\
        (forall x, In x l0 -> In x ref -> is_hyd x = false -> count_occ string_dec final x = 1)
    | PFail why => why = "oracle stream does not fit the protocol"%string
    end.

  Lemma pipeline_names_full : forall ps1 ns w0 am ssb opt k ls cl his w1 lg w3,
    apply_patches ps1 (mkW ns []) = Some w0 ->
    repair_heavy ref feas am (w_names w0) = RDone w1 lg ->
    add_hydrogens ref hfeas ssb w1 = Some w3 ->
    pipeline_names ref feas hfeas entry (MFull opt) ps1 [] am ssb k ls cl his ns =
    match proto_stage (eff_kind opt k) ls (w_names w3) with
    | POk l4 => partition entry (his_names his (cleanup_names cl l4)) lg
    | PDisabled => PFail "oracle stream does not fit the protocol"
    | PErr => PFail "protocol error"
    end.
  Proof.
    intros ps1 ns w0 am ssb opt k ls cl his w1 lg w3 H0 H1 H3.
    unfold pipeline_names. rewrite H0, H1. cbn [apply_patches fold_left]. rewrite H3. reflexivity.
  Qed.

  Lemma eff_kind_wf : forall opt k R, wf_kind k R = true -> wf_kind (eff_kind opt k) R = true.
  Proof. intros opt k R H. unfold eff_kind. destruct opt; auto. destruct k; auto. Qed.

  (* the guard on the protocol parameters is asked of the optimisation actually run,
     eff_kind opt k: with --noopt only Water keeps its protocol, every other kind passes *)
  Theorem pipeline_written_set : forall ps1 ns w0 am ssb opt k ls cl his,
    apply_patches ps1 (mkW ns []) = Some w0 ->
    let l0 := w_names w0 in
    let R := ref_atoms ref ssb l0 in
    wf_input ref l0 am = true ->
    wf_kind (eff_kind opt k) R = true ->
    (forall c, cl = Some c -> is_hyd (c_h1 c) = true) ->
    (forall x, In x (expected_final opt k cl his R) -> entry x = true) ->
    pipeline_ok l0 am (expected_final opt k cl his R)
      (pipeline_names ref feas hfeas entry (MFull opt) ps1 [] am ssb k ls cl his ns).
  Proof.
    intros ps1 ns w0 am ssb opt k ls cl his Hp l0 R Hw Hk Hcl Hent.
    destruct (wf_input_parts l0 am Hw) as [Hn [Hr [H1 [H2 [Hps [Hph Hcase]]]]]].
    destruct (stage12 l0 am ssb Hw) as [w1 [lg [w3 [E1 [E3 [Nd3 [S3 Elg]]]]]]].
    rewrite (pipeline_names_full ps1 ns w0 am ssb opt k ls cl his w1 lg w3 Hp E1 E3).
    assert (HR : NoDup R) by (unfold R, ref_atoms; apply NoDup_filter; auto).
    assert (Hph3 : forall x, In x (w_names w3) -> placeholder x = false).
    { intros x Hx. apply S3 in Hx. apply ref_atoms_In in Hx. apply Hph. tauto. }
    pose proof (proto_stage_good (eff_kind opt k) ls (w_names w3) R Nd3 S3 Hph3 Hk) as Hg.
    destruct (proto_stage (eff_kind opt k) ls (w_names w3)) as [l4| |]; [|reflexivity|contradiction].
    destruct Hg as [Nd4 [S4 P4]].
    (* l4 is set-equal to the expectation computed from R *)
    destruct (expected_of_set _ _ (w_names w3) Hk Nd3) as [_ E3'].
    destruct (expected_of_set _ _ R Hk HR) as [NE ER].
    assert (Hse : seteq l4 (expected_of (eff_kind opt k) R)).
    { split; [exact Nd4|]. split; [exact NE|]. intros x. rewrite S4, E3', ER, S3. reflexivity. }
    pose proof (seteq_his his _ _ (seteq_cleanup cl _ _ Hse)) as [Nf [Ne Sf]].
    fold (expected_final opt k cl his R) in Ne, Sf.
    unfold partition.
    assert (Hall : forall x, In x (his_names his (cleanup_names cl l4)) -> entry x = true).
    { intros x Hx. apply Hent. apply Sf. auto. }
    rewrite (filter_all entry _ Hall), (filter_none (fun x => negb (entry x))) by
      (intros x Hx; rewrite (Hall x Hx); reflexivity).
    cbn [pipeline_ok].
    destruct (drops_hyd_spec _ _ (cleanup_drops cl l4 Hcl)) as [Ic4 _].
    destruct (drops_hyd_spec _ _ (his_drops his (cleanup_names cl l4))) as [Ih4 _].
    split; auto. split; auto. split; auto. split; auto. split; [intros x Hx; apply P4, Ic4, Ih4, Hx|].
    split; auto. intros x Hx0 Hxr Hh. apply NoDup_count_occ'; auto. apply Sf.
    (* x is a reference atom, so it is in R and in the expectation; cleanup / set_state only drop hydrogens *)
    assert (HxR : In x R).
    { apply ref_atoms_In. split; auto. split; auto. intros [_ [_ Hc]]. auto. }
    destruct (drops_hyd_spec _ _ (cleanup_drops cl (expected_of (eff_kind opt k) R) Hcl)) as [_ KC].
    destruct (drops_hyd_spec _ _ (his_drops his (cleanup_names cl (expected_of (eff_kind opt k) R)))) as [_ KH].
    apply KH; [apply KC; [apply ER; auto|]|]; exact Hh.
  Qed.

  (* --clean: every atom left after the terminus patches is printed, nothing is added *)
  Theorem pipeline_clean : forall ps1 ps2 ns w0 am ssb k ls cl his,
    apply_patches ps1 (mkW ns []) = Some w0 ->
    pipeline_names ref feas hfeas entry MClean ps1 ps2 am ssb k ls cl his ns = PRes (w_names w0) (w_names w0) [] [].
  Proof. intros. unfold pipeline_names. rewrite H. reflexivity. Qed.

  (* --assign-only: no repair, no hydrogens, no optimisation: the written names are the
     current names that have an entry; every other one is reported unassigned *)
  Theorem pipeline_assign_only : forall ps1 ps2 ns w0 w1 am ssb k ls cl his,
    apply_patches ps1 (mkW ns []) = Some w0 -> apply_patches ps2 w0 = Some w1 ->
    exists final written un,
      pipeline_names ref feas hfeas entry MAssignOnly ps1 ps2 am ssb k ls cl his ns = PRes final written un [] /\
      final = his_names his (w_names w1) /\ written = filter entry final /\
      un = filter (fun x => negb (entry x)) final /\
      (forall x, In x written -> In x (w_names w1) /\ entry x = true).
  Proof.
    intros ps1 ps2 ns w0 w1 am ssb k ls cl his H0 H1. unfold pipeline_names. rewrite H0, H1. unfold partition.
    eexists. eexists. eexists. split; [reflexivity|]. split; auto. split; auto. split; auto.
    intros x Hx. apply filter_In in Hx. destruct Hx as [Hx He]. split; auto.
    exact (proj1 (drops_hyd_spec _ _ (his_drops his (w_names w1))) x Hx).
  Qed.
End PipelineProofs.

(* carboxylic residues: the protocol stage is certified per table instance (atom list as the
   pipeline presents it when the Carboxylic object is constructed) *)
Theorem pipeline_carb_stage : forall l i c ord lf ls best, all_instances_ok l = true -> In i l -> i_kind i = KCarb c ->
  match proto_stage (PCarb c ord lf) (LCarb ls best) (i_base i) with
  | POk l' => final_ok (i_expected i) l'
  | PDisabled => True
  | PErr => False
  end.
Proof.
  intros l i c ord lf ls best H Hi Hk. cbn [proto_stage].
  pose proof (proto_ok_stage _ _ _ _ _ _ ls best (carb_table_sound l i c ord lf H Hi Hk)) as Hp.
  destruct (carb_start c ord lf (i_base i)); auto.
Qed.

(* a concrete case that passes the boolean guard and whose expected names all have an entry *)
Theorem pcase_sound : forall (entry : string -> bool) c feas hfeas ls,
  (forall a l, feas a l = true) -> (forall a l, hfeas a l = true) ->
  pcase_guard c = true -> pcase_entries entry c = true ->
  exists w0 e, apply_patches (pc_ps1 c) (mkW (pc_ns c) []) = Some w0 /\ pcase_expected c = Some e /\
    pipeline_ok (pc_ref c) (w_names w0) false e
      (pipeline_names (pc_ref c) feas hfeas entry (MFull true) (pc_ps1 c) [] false (pc_ssb c)
                      (pc_kind c) ls (pc_cl c) (pc_his c) (pc_ns c)).
Proof.
  intros entry c feas hfeas ls Hf Hh Hg He. unfold pcase_guard in Hg. unfold pcase_entries, pcase_expected in *.
  destruct (apply_patches (pc_ps1 c) (mkW (pc_ns c) [])) as [w0|] eqn:E; [|discriminate].
  apply andb_true_iff in Hg. destruct Hg as [Hg H3]. apply andb_true_iff in Hg. destruct Hg as [H1 H2].
  exists w0. eexists. split; auto. split; [reflexivity|].
  apply (pipeline_written_set (pc_ref c) feas hfeas entry Hf Hh (pc_ps1 c) (pc_ns c) w0 false (pc_ssb c) true
           (pc_kind c) ls (pc_cl c) (pc_his c) E H1 H2).
  - intros x Hx. rewrite Hx in H3. exact H3.
  - intros x Hx. rewrite forallb_forall in He. apply He. exact Hx.
Qed.

Theorem pcases_ff_sound : forall (l : list pcase) (ent : pcase -> string -> bool),
  forallb pcase_guard l = true ->
  forall c, In c (filter (fun c => pcase_entries (ent c) c) l) ->
  forall feas hfeas ls, (forall a x, feas a x = true) -> (forall a x, hfeas a x = true) ->
  exists w0 e, apply_patches (pc_ps1 c) (mkW (pc_ns c) []) = Some w0 /\ pcase_expected c = Some e /\
    pipeline_ok (pc_ref c) (w_names w0) false e
      (pipeline_names (pc_ref c) feas hfeas (ent c) (MFull true) (pc_ps1 c) [] false (pc_ssb c)
                      (pc_kind c) ls (pc_cl c) (pc_his c) (pc_ns c)).
Proof.
  intros l ent Hg c Hc feas hfeas ls Hf Hh. apply filter_In in Hc. destruct Hc as [Hc He].
  rewrite forallb_forall in Hg. apply pcase_sound; auto.
Qed.

(* counting the cases that a force-field map parameterises fully, for several maps: the
   residue name and the expected atom names of a case are interned once ([P] below), and each
   map is then asked by id, the residue's atom table being fetched once per case.  [intern] is
   the generated name table and [entry] the predicate "the map has an entry" built on it
   (idn and entry_of of Generated/C03Pipe.v, which meet [entry_spec] by definition). *)
Section Interned.
  Variable intern : string -> option id.
  Variable entry : ffmap -> string -> string -> bool.
  Hypothesis entry_spec : forall m ff x, entry m ff x =
    match intern ff, intern x with
    | Some r, Some a => match lookup m r a with Some _ => true | None => false end
    | _, _ => false
    end.

  Definition interned (c : pcase) : option id * option (list (option id)) :=
    (intern (pc_ffname c), option_map (map intern) (pcase_expected c)).

  Definition has_entries (m : ffmap) (p : option id * option (list (option id))) : bool :=
    match snd p with
    | None => false
    | Some ids =>
        match fst p with
        | None => match ids with [] => true | _ => false end
        | Some r => match dget m r with
                    | Some ats => forallb (fun oa => match oa with Some a => dhas ats a | None => false end) ids
                    | None => match ids with [] => true | _ => false end
                    end
        end
    end.

  Lemma has_entries_interned : forall m c,
    has_entries m (interned c) = pcase_entries (entry m (pc_ffname c)) c.
  Proof.
    intros m c. unfold has_entries, interned, pcase_entries. cbn [fst snd].
    destruct (pcase_expected c) as [e|]; cbn [option_map]; [|reflexivity].
    rewrite (forallb_ext_in _ _ _ e (fun x _ => entry_spec m (pc_ffname c) x)).
    destruct (intern (pc_ffname c)) as [r|]; [|destruct e; reflexivity].
    unfold lookup, dhas. destruct (dget m r) as [ats|].
    - induction e as [|x e IH]; cbn [map forallb]; [reflexivity|]. rewrite IH. destruct (intern x); reflexivity.
    - destruct e as [|x e]; [reflexivity|]. cbn [map forallb]. destruct (intern x); reflexivity.
  Qed.

  Lemma full_counts_shared : forall (ms : list ffmap) (l : list pcase),
    map (fun m => List.length (filter (fun c => pcase_entries (entry m (pc_ffname c)) c) l)) ms =
    let P := map interned l in map (fun m => List.length (filter (has_entries m) P)) ms.
  Proof.
    intros ms l. cbv zeta. apply map_ext. intros m. induction l as [|c l IH]; [reflexivity|].
    cbn [map filter]. rewrite has_entries_interned.
    destruct (pcase_entries _ c); cbn [List.length]; rewrite IH; reflexivity.
  Qed.
End Interned.

Lemma init_fold_spec : forall alt recs acc, NoDup acc ->
  NoDup (fold_left (init_step alt) recs acc) /\
  fold_left (init_step alt) recs acc = (acc ++ first_occ acc (map (canon alt) recs))%list /\
  (forall x, In x (fold_left (init_step alt) recs acc) <-> In x acc \/ In x (map (canon alt) recs)).
Proof.
  induction recs as [|n recs IH]; intros acc Hn; cbn [fold_left map first_occ].
  - rewrite app_nil_r. split; auto. split; auto. intros x. cbn. tauto.
  - unfold init_step at 2 4 6. cbv zeta. destruct (mem (canon alt n) acc) eqn:E.
    + destruct (IH acc Hn) as [I1 [I2 I3]]. split; auto. split; auto.
      intros x. rewrite I3. cbn. split; [tauto|]. intros [H|[<-|H]]; auto. left. apply mem_In. auto.
    + assert (Hn' : NoDup (acc ++ [canon alt n])) by (apply NoDup_app_last; auto; apply mem_false; auto).
      destruct (IH _ Hn') as [I1 [I2 I3]]. split; auto. split.
      * rewrite I2. rewrite <- app_assoc. reflexivity.
      * intros x. rewrite I3, in_app_iff. cbn. tauto.
Qed.

Theorem residue_init_nodup : forall alt recs,
  NoDup (residue_init alt recs) /\
  residue_init alt recs = first_occ [] (map (canon alt) recs) /\
  (forall x, In x (residue_init alt recs) <-> In x (map (canon alt) recs)).
Proof.
  intros alt recs. destruct (init_fold_spec alt recs [] (NoDup_nil _)) as [H1 [H2 H3]].
  unfold residue_init. split; auto. split; auto. intros x. rewrite H3. cbn. tauto.
Qed.

Lemma res_init_fold : forall alt recs s acc, WFres s -> res_names s = acc ->
  WFres (fold_left (res_init_step alt) recs s) /\
  res_names (fold_left (res_init_step alt) recs s) = fold_left (init_step alt) recs acc.
Proof.
  induction recs as [|n recs IH]; intros s acc Hw Hn; cbn [fold_left]; auto.
  unfold res_init_step at 2 4, init_step at 2. cbv zeta. destruct (mem (canon alt n) acc) eqn:E.
  - assert (Hh : res_has (canon alt n) s = true) by (apply WFres_has; auto; rewrite Hn; apply mem_In; auto).
    rewrite Hh. apply IH; auto.
  - assert (Hni : ~ In (canon alt n) (res_names s)) by (rewrite Hn; apply mem_false; auto).
    assert (Hh : res_has (canon alt n) s = false).
    { destruct (res_has (canon alt n) s) eqn:E2; auto. apply WFres_has in E2; auto. contradiction. }
    rewrite Hh. destruct (create_ok s (canon alt n) Hw Hni) as [Hw' Hn']. apply IH; auto. rewrite Hn', Hn. reflexivity.
Qed.

(* the object-list + dict constructor builds a consistent residue with exactly those names *)
Theorem res_init_agrees : forall alt recs,
  WFres (res_init alt recs) /\ res_names (res_init alt recs) = residue_init alt recs.
Proof. intros. apply (res_init_fold alt recs res_empty []); [apply WFres_empty|reflexivity]. Qed.

(* splitting at hidden chain ends only regroups: the strands, in order, are the chain *)
Theorem split_at_concat : forall (A : Type) (mark : A -> bool) rs cur,
  concat (split_at A mark cur rs) = (cur ++ rs)%list.
Proof.
  induction rs as [|r rest IH]; intros cur; cbn [split_at].
  - rewrite app_nil_r. destruct cur; cbn; [reflexivity|rewrite app_nil_r; reflexivity].
  - destruct (mark r); cbn [concat]; rewrite IH; cbn [app]; rewrite <- app_assoc; reflexivity.
Qed.

Theorem split_at_nonempty : forall (A : Type) (mark : A -> bool) rs cur s,
  In s (split_at A mark cur rs) -> s <> [].
Proof.
  induction rs as [|r rest IH]; intros cur s H; cbn [split_at] in H.
  - destruct cur; [destruct H|]. destruct H as [<-|[]]. discriminate.
  - destruct (mark r).
    + destruct H as [<-|H]; [destruct cur; discriminate|]. eapply IH; eauto.
    + eapply IH; eauto.
Qed.

Theorem partition_no_loss_no_dup : forall (A : Type) (m : ffmap) (rs : list (@res A)),
  Permutation (map fst (fst (assign m rs)) ++ snd (assign m rs)) (all_atoms rs) /\
  (NoDup (all_atoms rs) -> NoDup (map fst (fst (assign m rs)) ++ snd (assign m rs))).
Proof.
  intros A m rs. pose proof (@assign_partition A m rs) as P. split; [exact P|].
  intros Hn. eapply Permutation_NoDup; [apply Permutation_sym; exact P | exact Hn].
Qed.
