(* C13 - disulfide bridges are detected symmetrically and exclusively.
   Property theorems only; model in Model/SSBridge.v, proofs in Proofs/SSBridge.v;
   the pipeline-level theorems at the end are proved in Proofs/SSOrder.v over the
   stage descriptions of Model/Pipeline.v (stage table: Generated/Stages.v).

   `close a b` stands for  util.distance(a.coords, b.coords) < BONDED_SS_LIMIT ;
   `rs` is the list of CYS-class residues in the order of Biomolecule.residues
   (ANY order: the theorems quantify over all lists).  *)
From Coq Require Import List ZArith Bool Permutation String.
From PV Require Import Model.SSBridge Proofs.SSBridge Model.Pipeline Proofs.SSOrder.
From PV Require Generated.Stages.
Import ListNotations.

(* Two cysteines whose sulfurs are within the limit of each other and of no
   third sulfur: both partner lists are exactly the other sulfur, both are
   flagged, point at each other, carry the CYX patch and the CYX force-field
   name, and neither has an HG after add_hydrogens (whether or not HG was in
   the input). *)
Theorem C13_ss_pair_symmetric :
  forall (close : nat -> nat -> bool), (forall a b, close a b = close b a) ->
  forall (rs : list cres) (ri rj : cres),
    (In ri rs /\ In rj rs /\ c_sg ri = true /\ c_sg rj = true /\ c_id ri <> c_id rj /\
     close (c_id ri) (c_id rj) = true /\
     forall rk, In rk rs -> c_sg rk = true -> c_id rk <> c_id ri -> c_id rk <> c_id rj ->
       close (c_id ri) (c_id rk) = false /\ close (c_id rj) (c_id rk) = false) ->
    let oi := ss_result close rs ri in
    let oj := ss_result close rs rj in
    o_partners oi = [c_id rj] /\ o_partners oj = [c_id ri] /\
    o_bonded oi = true /\ o_bonded oj = true /\
    o_partner oi = Some (c_id rj) /\ o_partner oj = Some (c_id ri) /\
    o_patched oi = true /\ o_patched oj = true /\
    o_ff oi = CYX /\ o_ff oj = CYX /\
    o_hg oi = false /\ o_hg oj = false.
Proof. exact ss_pair_symmetric. Qed.

(* A residue named CYS with no sulfur within the limit (or no sulfur at all) is
   not flagged, has no partner, no CYX patch, has HG after add_hydrogens and
   keeps the name CYS.  Guard: HG is present on input or can be placed (three
   of SG CB CA HB2 HB3 exist - always true after repair_heavy; see
   C13_ss_free_unbuildable_named_CYX for the excluded case). *)
Theorem C13_ss_isolated_free :
  forall (close : nat -> nat -> bool), (forall a b, close a b = close b a) ->
  forall (rs : list cres) (r : cres),
    c_name r = CYS ->
    (forall rk, In rk rs -> c_sg rk = true -> c_id rk <> c_id r -> close (c_id r) (c_id rk) = false) ->
    (c_hg r = true \/ c_build r = true) ->
    let o := ss_result close rs r in
    o_partners o = [] /\ o_bonded o = false /\ o_partner o = None /\ o_patched o = false /\
    o_hg o = true /\ o_ff o = CYS.
Proof. exact ss_isolated_free. Qed.

(* Order independence, per residue: if r's sulfur has at most one sulfur in
   range (weaker than the property's hypothesis, which also constrains the
   partner), everything observed for r is the same for every permutation of
   the residue list. *)
Theorem C13_ss_perm_invariant :
  forall (close : nat -> nat -> bool), (forall a b, close a b = close b a) ->
  forall (rs rs' : list cres) (r : cres),
    Permutation rs rs' -> In r rs ->
    (forall r1 r2, In r1 rs -> In r2 rs -> c_sg r1 = true -> c_sg r2 = true ->
       c_id r1 <> c_id r -> c_id r2 <> c_id r ->
       close (c_id r) (c_id r1) = true -> close (c_id r) (c_id r2) = true -> c_id r1 = c_id r2) ->
    ss_result close rs' r = ss_result close rs r.
Proof. exact ss_perm_invariant. Qed.

(* Order independence, whole structure: if every sulfur has at most one sulfur
   in range, reordering the residues only reorders the results. *)
Theorem C13_ss_perm_invariant_all :
  forall (close : nat -> nat -> bool), (forall a b, close a b = close b a) ->
  forall (rs rs' : list cres),
    Permutation rs rs' ->
    (forall r, In r rs ->
       forall r1 r2, In r1 rs -> In r2 rs -> c_sg r1 = true -> c_sg r2 = true ->
       c_id r1 <> c_id r -> c_id r2 <> c_id r ->
       close (c_id r) (c_id r1) = true -> close (c_id r) (c_id r2) = true -> c_id r1 = c_id r2) ->
    Permutation (ss_results close rs) (ss_results close rs').
Proof. exact ss_perm_invariant_all. Qed.

(* Chain membership and numbering: the result does not change under any
   relabelling of chain labels and residue numbers (no hypothesis at all). *)
Theorem C13_ss_label_invariant :
  forall (close : nat -> nat -> bool) (f : cres -> nat) (g : cres -> Z) (rs : list cres) (r : cres),
    ss_result close (map (relabel f g) rs) (relabel f g r) = ss_result close rs r.
Proof. exact ss_label_invariant. Qed.

(* The exact-coordinate instance of `close` is symmetric. *)
Theorem C13_closeZ_symmetric :
  forall (tab : list (nat * (Z * Z * Z))) (a b : nat), closeZ tab a b = closeZ tab b a.
Proof. exact closeZ_sym. Qed.

(* Outside the hypothesis - a third sulfur in range: the result depends on the
   processing order (three sulfurs pairwise about 2.0 A apart; residue 0 is unbonded
   in order 0,1,2 and bonded in order 2,1,0) ... *)
Theorem C13_ss_third_sulfur_order_dependent :
  exists (tab : list (nat * (Z * Z * Z))) (rs rs' : list cres) (r : cres),
    Permutation rs rs' /\ In r rs /\
    o_bonded (ss_result (closeZ tab) rs r) = false /\
    o_bonded (ss_result (closeZ tab) rs' r) = true.
Proof. exact ss_third_sulfur_order_dependent. Qed.

(* ... and flagging is not mutual there: a flagged residue points at a residue
   that is not flagged and points nowhere. *)
Theorem C13_ss_third_sulfur_not_mutual :
  exists (tab : list (nat * (Z * Z * Z))) (rs : list cres) (ri rj : cres),
    In ri rs /\ In rj rs /\
    o_partner (ss_result (closeZ tab) rs ri) = Some (c_id rj) /\
    o_bonded (ss_result (closeZ tab) rs rj) = false /\
    o_partner (ss_result (closeZ tab) rs rj) = None.
Proof. exact ss_third_sulfur_not_mutual. Qed.

(* The case excluded by the guard of C13_ss_isolated_free: a free CYS whose HG
   is absent and cannot be placed is named CYX by CYS.set_state. *)
Theorem C13_ss_free_unbuildable_named_CYX :
  exists (rs : list cres) (r : cres),
    In r rs /\ c_name r = CYS /\
    (forall rk, In rk rs -> c_sg rk = true -> c_id rk <> c_id r -> closeZ [] (c_id r) (c_id rk) = false) /\
    o_bonded (ss_result (closeZ []) rs r) = false /\
    o_hg (ss_result (closeZ []) rs r) = false /\
    o_ff (ss_result (closeZ []) rs r) = CYX.
Proof. exact ss_free_unbuildable_named_CYX. Qed.

(* Non-vacuity: a concrete structure (coordinates in 0.001 A) with an exclusive
   pair 0-1 at 2.499 A, a sulfur 2 at exactly 2.500 A from 3 (not bonded: the
   test is strict) and HG present on input for 1 and 3.  The hypotheses of the
   pair and isolated theorems hold and the model computes the stated result. *)
Example C13_nonvacuous :
  let tab := [(0, (0, 0, 0)%Z); (1, (2499, 0, 0)%Z); (2, (20000, 0, 0)%Z); (3, (21500, 2000, 0)%Z)] in
  let rs := [mkres 2 CYS true false true 0 5%Z; mkres 0 CYS true false true 1 7%Z;
             mkres 3 CYS true true true 1 (-3)%Z; mkres 1 CYS true true true 2 7%Z] in
  closeZ tab 0 1 = true /\
  forallb (fun k => negb (closeZ tab 0 k) && negb (closeZ tab 1 k)) [2; 3] = true /\
  forallb (fun k => negb (closeZ tab 2 k)) [0; 1; 3] = true /\
  dist2Z tab 2 3 = 6250000%Z /\
  map show_out (ss_results (closeZ tab) rs) =
    ["2::0:-:0:1:CYS"; "0:1:1:1:1:0:CYX"; "3::0:-:0:1:CYS"; "1:0:1:0:1:0:CYX"]%string.
Proof. vm_compute. repeat split; reflexivity. Qed.

(* Pipeline level: the property speaks of the sulfurs of the RETURNED model.  For every stage list that meets
   the order obligation (the detection is not controlled by args.debump; behind it no second detection and no
   heavy-atom mover other than one controlled by args.debump) and every semantics of the stages respecting the
   three frame conditions, the flags of the state returned with --nodebump are detect(its final sulfurs) - so
   the theorems above apply to the returned model, including cysteines whose sulfur was rebuilt by
   repair_heavy.  PARTIAL: the frame conditions are modelled (tied at run time by the rebuilt-sulfur stage
   of the harness); with debumping on, the returned sulfurs may differ from those the detection saw. *)
Theorem C13_detection_sees_final_sulfurs :
  forall (state S F : Type) (sulfurs : state -> S) (flags : state -> F) (detect : S -> F)
         (sem : sdesc -> state -> state),
    (forall d s, is_ss d = true -> flags (sem d s) = detect (sulfurs s) /\ sulfurs (sem d s) = sulfurs s) ->
    (forall d s, is_ss d = false -> flags (sem d s) = flags s) ->
    (forall d s, mover d = false -> sulfurs (sem d s) = sulfurs s) ->
    forall ds s, order_ok ds = true ->
      flags (run state sem ds s) = detect (sulfurs (run state sem ds s)).
Proof.
  intros state S F sulfurs flags detect sem Hss. apply detection_sees_final_sulfurs.
  intros d s H. apply Hss, H.
Qed.

(* the stage table translated from the current pdb2pqr/main.py meets the obligation (and has the stages it
   speaks about) *)
Theorem C13_ss_stage_order_table :
  ss_order_obligation PV.Generated.Stages.stages = true.
Proof. vm_compute. reflexivity. Qed.

(* the obligation is needed: detection before repair_heavy, under a semantics meeting the frame conditions,
   returns flags that are not those of the returned sulfurs *)
Theorem C13_detection_before_repair_is_wrong :
  let ds := [w_stage "update_ss_bridges"; w_stage "repair_heavy"] in
  order_ok ds = false /\
  (forall d s, is_ss d = true -> snd (w_sem d s) = fst s /\ fst (w_sem d s) = fst s) /\
  (forall d s, is_ss d = false -> snd (w_sem d s) = snd s) /\
  (forall d s, mover d = false -> fst (w_sem d s) = fst s) /\
  snd (run w_state w_sem ds (0, 0)) <> fst (run w_state w_sem ds (0, 0)).
Proof. exact detection_before_repair_is_wrong. Qed.

Print Assumptions C13_ss_pair_symmetric.
Print Assumptions C13_ss_isolated_free.
Print Assumptions C13_ss_perm_invariant.
Print Assumptions C13_ss_perm_invariant_all.
Print Assumptions C13_ss_label_invariant.
Print Assumptions C13_closeZ_symmetric.
Print Assumptions C13_ss_third_sulfur_order_dependent.
Print Assumptions C13_ss_third_sulfur_not_mutual.
Print Assumptions C13_ss_free_unbuildable_named_CYX.
Print Assumptions C13_nonvacuous.
Print Assumptions C13_detection_sees_final_sulfurs.
Print Assumptions C13_ss_stage_order_table.
Print Assumptions C13_detection_before_repair_is_wrong.
