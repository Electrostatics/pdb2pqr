(* E2E_Clean: pdb2pqr --clean end to end.  The theorems COMPOSE the record-level
   theorem of C07 (Proofs.Group.group_complete through Proofs.Ingest.read_guarded /
   spec_atoms / drop_water_is_deletion) with the file round trips of C08
   (Proofs.PqrFormat.fixed_file_roundtrip / ws_file_roundtrip); nothing of either
   is re-proved.  Proved here: the adapter between the two atom records, and the
   guard under which set_termini (the stage between them) is the identity. *)
From Coq Require Import String List ZArith Bool Permutation.
From PV Require Import Lib.Lists Lib.Strings Lib.Decimal Model.PdbRead Model.Group Model.PdbSpec
  Proofs.Group Proofs.Ingest Model.CleanRun.
From PV Require Model.PqrFormat Proofs.PqrFormat.
Import ListNotations.
Local Open Scope string_scope.
Local Open Scope list_scope.

Module MP := PV.Model.PqrFormat.
Module PP := PV.Proofs.PqrFormat.

Lemma atom_eqb_eq a b : atom_eqb a b = true -> a = b.
Proof.
  destruct a, b. unfold atom_eqb. cbn [PdbRead.a_het PdbRead.a_tok0 PdbRead.a_serial PdbRead.a_name
    PdbRead.a_alt PdbRead.a_resname PdbRead.a_chain PdbRead.a_resseq PdbRead.a_icode PdbRead.a_x
    PdbRead.a_y PdbRead.a_z PdbRead.a_src].
  rewrite !andb_true_iff, Bool.eqb_true_iff, !String.eqb_eq, !Z.eqb_eq.
  intros [[[[[[[[[[[[-> ->] ->] ->] ->] ->] ->] ->] ->] ->] ->] ->] ->]. reflexivity.
Qed.

Lemma list_eqb_eq {A} (e : A -> A -> bool) :
  (forall a b, e a b = true -> a = b) -> forall l1 l2, list_eqb e l1 l2 = true -> l1 = l2.
Proof.
  intros He. induction l1 as [|x r IH]; intros [|y r2]; simpl; try discriminate; [reflexivity|].
  intros H. apply andb_true_iff in H as [H1 H2]. rewrite (He _ _ H1), (IH _ H2). reflexivity.
Qed.

Lemma quiet_atoms tab pt near rs :
  termini_quiet tab pt near rs = true -> set_termini tab pt near rs = Some (all_atoms rs).
Proof.
  unfold termini_quiet. destruct (set_termini tab pt near rs) as [l|]; [|discriminate].
  intros H. rewrite (list_eqb_eq atom_eqb atom_eqb_eq _ _ H). reflexivity.
Qed.

Lemma all_okb_ok ok l : forall i, all_okb ok i l = true -> PP.all_ok ok i l.
Proof.
  induction l as [|a r IH]; intros i H; simpl in *; [exact I|].
  apply andb_true_iff in H as [H1 H2]. split; [exact H1 | apply IH; exact H2].
Qed.

Lemma item_text_nonempty it : is_empty (MP.item_text it) = false.
Proof. destruct it as [l| |]; [destruct l|..]; reflexivity. Qed.

Lemma chunks_default its :
  MP.written_chunks false false (map MP.item_text its) = map MP.item_text its.
Proof.
  assert (W : forall s, MP.write_line false false s = s).
  { intros s. unfold MP.write_line. cbn [negb]. rewrite orb_true_r. reflexivity. }
  unfold MP.written_chunks. induction its as [|it r IH]; [reflexivity|].
  cbn [map filter]. rewrite W, item_text_nonempty. cbn [negb]. f_equal. exact IH.
Qed.

Section Adapter.
  Variable r3 : string -> MP.fx.

  (* the column record of a C07 atom as the output will show it *)
  Definition crec_of (keep : bool) (a : atomrec) : crec :=
    mkC (if keep then a_chain a else "") (Some (a_resseq a)) (a_icode a)
        (pf3 r3 (a_x a)) (pf3 r3 (a_y a)) (pf3 r3 (a_z a)).

  Definition nrec_of (a : atomrec) : nrec := mkN (show_bool (a_het a)) (a_name a) (a_resname a).

  (* the --whitespace reader's atom as a column record *)
  Definition ws_crec (p : MP.patom) : crec :=
    mkC (match MP.p_chain p with Some c => c | None => "" end) (Some (MP.p_res_seq p))
        (match MP.p_ins p with Some c => c | None => "" end)
        (Some (MP.p_x p)) (Some (MP.p_y p)) (Some (MP.p_z p)).

  (* the writer overwrites the serial with the position; whatever is read off the
     output atoms without the serial is read off the C07 atoms *)
  Lemma renumbered_conv {B} (V : MP.atom -> B) (W : atomrec -> B) :
    (forall n a, V (MP.with_serial n (conv r3 a)) = W a) ->
    forall l i, map V (PP.renumbered i (map (conv r3) l)) = map W l.
  Proof.
    intros H. induction l as [|a r IH]; intros i; [reflexivity|].
    cbn [map PP.renumbered]. rewrite H, IH. reflexivity.
  Qed.

  Lemma fixed_view {B} (V : MP.fatom -> B) (W : atomrec -> B) keep l :
    (forall n a, V (MP.expected_fixed keep (MP.with_serial n (conv r3 a))) = W a) ->
    PP.all_ok (MP.fixed_ok keep) 0 (map (conv r3) l) ->
    map V (map MP.read_fixed (PP.atom_lines (MP.print_items keep (map (conv r3) l)))) = map W l.
  Proof.
    intros H Hc. rewrite (PP.fixed_file_roundtrip keep _ Hc), map_map. apply renumbered_conv, H.
  Qed.

  (* an absent chain / insertion code comes back as None *)
  Lemma ws_crec_one keep n a :
    ws_crec (MP.expected_ws keep (MP.with_serial n (conv r3 a))) = crec_of keep a.
  Proof.
    unfold ws_crec, crec_of, MP.expected_ws, conv, MP.with_serial, pf3.
    cbn [MP.a_chain MP.a_ins MP.p_chain MP.p_ins MP.p_res_seq MP.p_x MP.p_y MP.p_z MP.a_res_seq MP.a_x MP.a_y MP.a_z].
    destruct keep, (a_chain a), (a_icode a); reflexivity.
  Qed.

  (* the input side: columns and names of the line the record was made from *)
  Definition both_of (keep : bool) (a : atomrec) : crec * nrec := (crec_of keep a, in_nrec (a_src a)).

  Lemma reads_both keep a raw :
    reads a raw -> both_of keep a = (in_crec r3 keep raw, in_nrec (strip raw)).
  Proof.
    intros [Rs [Ri [_ [_ [Rx [Ry Rz]]]]]]. unfold rident, line_ident in Ri. injection Ri as I1 I2 I3 _.
    unfold both_of, crec_of, in_crec. rewrite I1, I2, I3, Rx, Ry, Rz, Rs. reflexivity.
  Qed.

  Lemma canon_nrec a : canon a = true -> nrec_of a = in_nrec (a_src a).
  Proof.
    unfold canon. rewrite !andb_true_iff. intros [[H1 H2] H3].
    apply String.eqb_eq in H1, H2, H3. unfold nrec_of, in_nrec. rewrite <- H1, <- H2, <- H3. reflexivity.
  Qed.

  Lemma canon_both keep l :
    forallb canon l = true ->
    map (fun a => (crec_of keep a, nrec_of a)) l = map (both_of keep) l.
  Proof.
    rewrite forallb_forall. intros H. apply map_ext_in. intros a Ha.
    unfold both_of. rewrite (canon_nrec a (H a Ha)). reflexivity.
  Qed.
End Adapter.

Section Compose.
  Variable fok : string -> bool.
  Variable tab : deftab.
  Variable pt : ptab.
  Variable near : atomrec -> atomrec -> bool.
  Variable r3 : string -> MP.fx.

  (* C07 for any projection [p] of the atoms that the residue classes leave alone and
     that the source line determines ([q]); Proofs.Ingest.ingest_complete is
     p := a_src, q := strip *)
  Lemma ingest_perm {B : Type} (p : atomrec -> B) (q : string -> B)
    (p_alt : forall a s, p (set_alt a s) = p a) (p_name : forall a s, p (set_name a s) = p a)
    (p_resname : forall a s, p (set_resname a s) = p a) (p_het : forall a h, p (set_het a h) = p a)
    (pq : forall a l, reads a l -> p a = q l) lines :
    guard fok tab lines = true ->
    exists rs, ingest fok tab false lines = Done rs /\
      Permutation (map p (all_atoms rs)) (map q (cols_read lines)).
  Proof.
    intros H.
    destruct (ingest_guarded fok tab B p p_alt p_name p_resname p_het lines H) as [rs [sa [E [P F]]]].
    exists rs. split; [exact E|]. rewrite <- (Forall2_map_eq reads p q pq _ _ F). exact P.
  Qed.

  (* what the guard gives: the atoms that are printed, within the writer's capacities,
     are - columns and source names - those of the lines C07's column read selects *)
  Lemma guarded_atoms ok keep lines :
    e2e_guard fok tab pt near r3 ok lines = true ->
    exists rs, ingest fok tab false lines = Done rs /\
      clean_atoms fok tab pt near false lines = Some (all_atoms rs) /\
      PP.all_ok ok 0 (map (conv r3) (all_atoms rs)) /\
      Permutation (map (both_of r3 keep) (all_atoms rs))
                  (map (fun l => (in_crec r3 keep l, in_nrec (strip l))) (cols_read lines)).
  Proof.
    unfold e2e_guard. intros H. apply andb_true_iff in H as [Hg H].
    destruct (ingest_perm (both_of r3 keep) _ (fun _ _ => eq_refl) (fun _ _ => eq_refl)
                (fun _ _ => eq_refl) (fun _ _ => eq_refl) (reads_both r3 keep) lines Hg) as [rs [Hi P]].
    rewrite Hi in H. apply andb_true_iff in H as [Hq Hc].
    exists rs. split; [exact Hi|]. split; [|split; [apply all_okb_ok; exact Hc | exact P]].
    unfold clean_atoms. rewrite Hi. apply quiet_atoms. exact Hq.
  Qed.

  Lemma guarded_crec ok keep lines :
    e2e_guard fok tab pt near r3 ok lines = true ->
    exists az, clean_atoms fok tab pt near false lines = Some az /\
      PP.all_ok ok 0 (map (conv r3) az) /\
      Permutation (map (crec_of r3 keep) az) (map (in_crec r3 keep) (cols_read lines)).
  Proof.
    intros H. destruct (guarded_atoms ok keep lines H) as (rs & _ & Ha & Hc & P).
    exists (all_atoms rs). split; [exact Ha|]. split; [exact Hc|].
    apply (Permutation_map fst) in P. rewrite !map_map in P. exact P.
  Qed.

  (* the run, given Biomolecule.atoms *)
  Lemma clean_run_of_atoms dropw keep ws lines az :
    clean_atoms fok tab pt near dropw lines = Some az ->
    clean_items fok tab pt near r3 dropw keep lines = Some (MP.print_items keep (map (conv r3) az)) /\
    clean_run fok tab pt near r3 dropw keep ws lines =
      Some (MP.written_chunks ws false (map MP.item_text (MP.print_items keep (map (conv r3) az)))).
  Proof. intros H. unfold clean_run, clean_items. rewrite H. split; reflexivity. Qed.

  Theorem clean_run_faithful_partial keep lines :
    e2e_guard fok tab pt near r3 (MP.fixed_ok keep) lines = true ->
    exists its,
      clean_items fok tab pt near r3 false keep lines = Some its /\
      clean_run fok tab pt near r3 false keep false lines = Some (map MP.item_text its) /\
      Permutation (map out_crec (map MP.read_fixed (PP.atom_lines its)))
                  (map (in_crec r3 keep) (cols_read lines)).
  Proof.
    intros H. destruct (guarded_crec _ keep _ H) as (az & Ha & Hc & P).
    destruct (clean_run_of_atoms false keep false _ _ Ha) as [Ei Er].
    eexists. split; [exact Ei|]. split; [rewrite Er, chunks_default; reflexivity|].
    rewrite (fixed_view r3 out_crec (crec_of r3 keep) keep az (fun _ _ => eq_refl) Hc). exact P.
  Qed.

  (* record type, atom name and residue name too, when the residue classes left them
     as the columns have them *)
  Theorem clean_run_names_partial keep lines :
    e2e_guard fok tab pt near r3 (MP.fixed_ok keep) lines = true ->
    canon_guard fok tab lines = true ->
    exists its,
      clean_items fok tab pt near r3 false keep lines = Some its /\
      Permutation (map (fun f => (out_crec f, out_nrec f)) (map MP.read_fixed (PP.atom_lines its)))
                  (map (fun l => (in_crec r3 keep l, in_nrec (strip l))) (cols_read lines)).
  Proof.
    intros H Hn. destruct (guarded_atoms _ keep _ H) as (rs & Hi & Ha & Hc & P).
    unfold canon_guard in Hn. rewrite Hi in Hn.
    eexists. split; [apply (clean_run_of_atoms false keep false _ _ Ha)|].
    rewrite (fixed_view r3 _ (fun a => (crec_of r3 keep a, nrec_of a)) keep _ (fun _ _ => eq_refl) Hc).
    rewrite (canon_both r3 keep _ Hn). exact P.
  Qed.

  Lemma clean_run_drop_water keep ws lines :
    forallb (g_line fok) lines = true ->
    clean_run fok tab pt near r3 true keep ws lines =
    clean_run fok tab pt near r3 false keep ws (no_water lines).
  Proof.
    intros Hg. unfold clean_run, clean_items, clean_atoms.
    rewrite (drop_water_is_deletion fok tab lines Hg). reflexivity.
  Qed.

  Theorem clean_run_drop_water_partial keep lines :
    forallb (g_line fok) lines = true ->
    e2e_guard fok tab pt near r3 (MP.fixed_ok keep) (no_water lines) = true ->
    exists its,
      clean_run fok tab pt near r3 true keep false lines = Some (map MP.item_text its) /\
      Permutation (map out_crec (map MP.read_fixed (PP.atom_lines its)))
                  (map (in_crec r3 keep) (cols_read (no_water lines))).
  Proof.
    intros Hg H. destruct (clean_run_faithful_partial keep _ H) as [its [_ [Hr P]]].
    exists its. split; [|exact P]. rewrite (clean_run_drop_water keep false lines Hg). exact Hr.
  Qed.

  (* --whitespace: pdb2pqr's own reader on the written file *)
  Theorem clean_run_whitespace_partial keep lines :
    e2e_guard fok tab pt near r3 (MP.ws_ok keep) lines = true ->
    exists out ps,
      clean_run fok tab pt near r3 false keep true lines = Some out /\
      MP.read_pqr out = inl ps /\
      Permutation (map ws_crec ps) (map (in_crec r3 keep) (cols_read lines)).
  Proof.
    intros H. destruct (guarded_crec _ keep _ H) as (az & Ha & Hc & P).
    pose proof (PP.ws_file_roundtrip keep false _ Hc) as R.
    unfold MP.file_chunks in R. rewrite app_nil_r in R.
    eexists. eexists. split; [apply (clean_run_of_atoms false keep true _ _ Ha)|]. split; [exact R|].
    rewrite map_map, (renumbered_conv r3 _ (crec_of r3 keep) (ws_crec_one r3 keep)). exact P.
  Qed.

  (* shape of the written file, ALL inputs (no guard) *)
  Theorem clean_file_shape dropw keep lines atoms :
    clean_atoms fok tab pt near dropw lines = Some atoms ->
    clean_run fok tab pt near r3 dropw keep false lines =
      Some (map MP.item_text (MP.print_items keep (map (conv r3) atoms))) /\
    PP.atom_lines (MP.print_items keep (map (conv r3) atoms)) = PP.numbered keep 0 (map (conv r3) atoms).
  Proof.
    intros H. split; [|apply PP.order_preserved].
    rewrite (proj2 (clean_run_of_atoms dropw keep false _ _ H)), chunks_default. reflexivity.
  Qed.

End Compose.

Local Open Scope string_scope.

Definition etab : deftab :=
  [("ALA", (KAmino, [("HN", "H")])); ("GLY", (KAmino, [])); ("SER", (KAmino, []));
   ("RA", (KNucleic, [])); ("HOH", (KWater, [("OW", "O")]))].

(* the terminal patches of /repo's PATCHES.xml (remove, altnames) *)
Definition ept : ptab :=
  mkPT ([], [("HT1", "H"); ("H1", "H"); ("1H", "H"); ("HT2", "H2"); ("2H", "H2"); ("HT3", "H3"); ("3H", "H3")])
       ([], [("O''", "OXT"); ("OT2", "OXT"); ("O'", "O"); ("OT1", "O")])
       (["O1P"; "P"; "O2P"], [])
       ([], []).

Definition er3 := r3_exec [].

(* three residues + a ligand in two chains, waters, alt-locs, a second model, a
   header, a blank line, a short line *)
Definition ex_clean : list string :=
  [ "HEADER    TEST" ++ nl;
    "MODEL        1" ++ nl;
    "ATOM      1  N  AALA A   1      11.000  12.000  13.000  1.00  0.00           N" ++ nl;
    "ATOM      2  N  BALA A   1      11.500  12.000  13.000  1.00  0.00           N" ++ nl;
    "   " ++ nl;
    "ATOM      3  CA  ALA A   1      12.000  12.000  13.000" ++ nl;
    "ATOM      4  N   GLY A  -2A     14.000 -12.500  13.125  1.00  0.00           N" ++ nl;
    "ATOM      5  CA  GLY A  -2A     15.000 -12.500  13.125  1.00  0.00           C" ++ nl;
    "HETATM    6  O   HOH A 100      20.000  12.000  13.000  1.00  0.00           O" ++ nl;
    "TER" ++ nl;
    "ATOM      7  N   SER B   5       1.000   2.000   3.000  1.00  0.00           N" ++ nl;
    "HETATM    8 ZN    ZN B   6       4.000   5.000   6.000  1.00  0.00          ZN" ++ nl;
    "HETATM    9  O   HOH B 101      21.000  12.000  13.000  1.00  0.00           O" ++ nl;
    "ENDMDL" ++ nl;
    "MODEL        2" ++ nl;
    "ATOM     10  N   ALA A   1      31.000  12.000  13.000  1.00  0.00           N" ++ nl;
    "ENDMDL" ++ nl;
    "END" ++ nl ].

Definition ex_clean_out : string :=
  "ATOM      1  N   ALA A   1      11.000  12.000  13.000  0.0000 0.0000" ++ nl ++
  "ATOM      2  CA  ALA A   1      12.000  12.000  13.000  0.0000 0.0000" ++ nl ++
  "ATOM      3  N   GLY A  -2A     14.000 -12.500  13.125  0.0000 0.0000" ++ nl ++
  "ATOM      4  CA  GLY A  -2A     15.000 -12.500  13.125  0.0000 0.0000" ++ nl ++
  "HETATM    5  O   HOH A 100      20.000  12.000  13.000  0.0000 0.0000" ++ nl ++
  "TER" ++ nl ++
  "ATOM      6  N   SER B   5       1.000   2.000   3.000  0.0000 0.0000" ++ nl ++
  "HETATM    7  ZN  ZN  B   6       4.000   5.000   6.000  0.0000 0.0000" ++ nl ++
  "HETATM    8  O   HOH B 101      21.000  12.000  13.000  0.0000 0.0000" ++ nl ++
  "TER" ++ nl ++ "END".

Definition ex_clean_out_dropw : string :=
  "ATOM      1  N   ALA A   1      11.000  12.000  13.000  0.0000 0.0000" ++ nl ++
  "ATOM      2  CA  ALA A   1      12.000  12.000  13.000  0.0000 0.0000" ++ nl ++
  "ATOM      3  N   GLY A  -2A     14.000 -12.500  13.125  0.0000 0.0000" ++ nl ++
  "ATOM      4  CA  GLY A  -2A     15.000 -12.500  13.125  0.0000 0.0000" ++ nl ++
  "TER" ++ nl ++
  "ATOM      5  N   SER B   5       1.000   2.000   3.000  0.0000 0.0000" ++ nl ++
  "HETATM    6  ZN  ZN  B   6       4.000   5.000   6.000  0.0000 0.0000" ++ nl ++
  "TER" ++ nl ++ "END".

Lemma ex_clean_ok :
  e2e_guard py_float_ok etab ept near_dec er3 (MP.fixed_ok true) ex_clean = true /\
  e2e_guard py_float_ok etab ept near_dec er3 (MP.ws_ok true) ex_clean = true /\
  canon_guard py_float_ok etab ex_clean = true /\
  forallb (g_line py_float_ok) ex_clean = true /\
  e2e_guard py_float_ok etab ept near_dec er3 (MP.fixed_ok true) (no_water ex_clean) = true /\
  List.length (cols_read ex_clean) = 8 /\
  List.length (cols_read (no_water ex_clean)) = 6 /\
  clean_file py_float_ok etab ept near_dec er3 false true false ex_clean = Some ex_clean_out /\
  clean_file py_float_ok etab ept near_dec er3 true true false ex_clean = Some ex_clean_out_dropw.
Proof.
  (* C07's guard is the dear part: evaluated once for the two layouts *)
  assert (G : guard py_float_ok etab ex_clean = true) by (vm_compute; reflexivity).
  unfold e2e_guard. rewrite G. vm_compute. repeat split; reflexivity.
Qed.

(* the full statement (no guard on set_termini) is refuted by the faithful model:
   the 5TERM patch removes the 5' phosphate of the first nucleotide of a chain; the
   file meets C07's guard, 4 coordinate records go in, 3 atom lines come out, and
   the P record of residue 1 is not in the written file (ex_5prime_out).  The
   column capacities and termini_quiet are not among the conjuncts *)
Definition ex_5prime : list string :=
  [ "ATOM      1  P     A A   1       1.000   2.000   3.000  1.00  0.00           P" ++ nl;
    "ATOM      2  O5'   A A   1       4.000   2.000   3.000  1.00  0.00           O" ++ nl;
    "ATOM      3  P     A A   2       5.000   2.000   3.000  1.00  0.00           P" ++ nl;
    "ATOM      4  O5'   A A   2       6.000   2.000   3.000  1.00  0.00           O" ++ nl;
    "END" ++ nl ].

Definition ex_5prime_out : string :=
  "ATOM      1  O5' RA  A   1       4.000   2.000   3.000  0.0000 0.0000" ++ nl ++
  "ATOM      2  P   RA  A   2       5.000   2.000   3.000  0.0000 0.0000" ++ nl ++
  "ATOM      3  O5' RA  A   2       6.000   2.000   3.000  0.0000 0.0000" ++ nl ++
  "TER" ++ nl ++ "END".

Lemma five_prime_refuted :
  guard py_float_ok etab ex_5prime = true /\
  List.length (cols_read ex_5prime) = 4 /\
  clean_file py_float_ok etab ept near_dec er3 false true false ex_5prime = Some ex_5prime_out /\
  (exists its, clean_items py_float_ok etab ept near_dec er3 false true ex_5prime = Some its /\
     List.length (PP.atom_lines its) = 3 /\
     ~ Permutation (map out_crec (map MP.read_fixed (PP.atom_lines its)))
                   (map (in_crec er3 true) (cols_read ex_5prime))).
Proof.
  assert (L : List.length (cols_read ex_5prime) = 4) by (vm_compute; reflexivity).
  split; [vm_compute; reflexivity|]. split; [exact L|]. split; [vm_compute; reflexivity|].
  eexists. split; [vm_compute; reflexivity|]. split; [reflexivity|].
  intros P. apply Permutation_length in P. rewrite !map_length, L in P. discriminate P.
Qed.

(* a hidden chain: an internal OXT gives the residues up to it a new chain id (B in
   every input line, A on residue 1 in ex_hidden_out) *)
Definition ex_hidden : list string :=
  [ "ATOM      1  N   ALA B   1       7.000   2.000   3.000  1.00  0.00           N" ++ nl;
    "ATOM      2  OXT ALA B   1       9.000   2.000   3.000  1.00  0.00           O" ++ nl;
    "ATOM      3  N   GLY B   2      20.000   2.000   3.000  1.00  0.00           N" ++ nl ].

Definition ex_hidden_out : string :=
  "ATOM      1  N   ALA A   1       7.000   2.000   3.000  0.0000 0.0000" ++ nl ++
  "ATOM      2  OXT ALA A   1       9.000   2.000   3.000  0.0000 0.0000" ++ nl ++
  "TER" ++ nl ++
  "ATOM      3  N   GLY B   2      20.000   2.000   3.000  0.0000 0.0000" ++ nl ++
  "TER" ++ nl ++ "END".

Lemma hidden_chain_refuted :
  guard py_float_ok etab ex_hidden = true /\
  clean_file py_float_ok etab ept near_dec er3 false true false ex_hidden = Some ex_hidden_out.
Proof. vm_compute. split; reflexivity. Qed.
