(* C04, third sentence ("with --clean, --assign-only, or --nodebump together with --noopt, no input heavy
   atom moves"): an obligation on the stage table that gen/stages.py translates from pdb2pqr/main.py
   (Generated/Stages.v, shared with C09, C12 and C13).  Definitions only.

   What the table can say: [sd_reads] of a stage are the options its effect may depend on, INCLUDING the
   tests of the enclosing `if`s (control dependence).  The obligation: every stage that calls
   Debump.debump_biomolecule is controlled by args.debump and, besides it, by nothing but assign_only and
   clean (the two options transform_arguments derives debump/opt from); the stages that set up the full
   hydrogen-bond optimisation (the only place Flip objects are created) likewise by args.opt; and no stage
   other than transform_arguments writes debump or opt.  It does not express the polarity of the test
   (`if args.debump` vs `if not args.debump`): that is observed at run time (no debumping pass with
   args.debump false, over random points of the option lattice). *)
From Coq Require Import String List Bool Arith.
From PV Require Import Model.Pipeline.
Import ListNotations.
Local Open Scope string_scope.

Definition subset (a b : list string) : bool := forallb (fun x => mem x b) a.

Definition guarded_by (o : string) (d : sdesc) : bool :=
  mem o (sd_reads d) && subset (sd_reads d) [o; "assign_only"; "clean"].

Definition full_opt_stages : list string :=
  ["initialize_full_optimization"; "set_optimizeable_hydrogens"; "hold_residues"].

Definition count_named (n : string) (ds : list sdesc) : nat :=
  List.length (filter (fun d => String.eqb (sd_name d) n) ds).

Definition noop_obligation (ds : list sdesc) : bool :=
  forallb (fun d => negb (String.eqb (sd_name d) "debump_biomolecule") || guarded_by "debump" d) ds
  && Nat.leb 2 (count_named "debump_biomolecule" ds)
  && forallb (fun d => negb (mem (sd_name d) full_opt_stages) || guarded_by "opt" d) ds
  && Nat.leb 1 (count_named "initialize_full_optimization" ds)
  && forallb (fun d => forallb (fun w => negb (mem (fst w) ["debump"; "opt"])
                                        || (String.eqb (sd_name d) "transform_arguments"
                                            && subset (snd w) ["assign_only"; "clean"]))
                               (sd_writes d)) ds.
