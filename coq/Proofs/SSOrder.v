(* C13 at pipeline level: the disulfide flags of the RETURNED model are those of its final sulfur positions.

   Biomolecule.update_ss_bridges decides from the sulfur positions it sees when it runs.  The property
   speaks of the returned model, so the decision has to be made after every stage that creates or moves
   heavy atoms (a cysteine whose SG record is missing gets its sulfur from repair_heavy), and no such stage
   may run afterwards.  This file states that as an obligation on the stage table gen/stages.py translates
   from pdb2pqr/main.py (Generated/Stages.v) and proves, for every stage list meeting it and every
   semantics of the stages that respects the three frame conditions below, that the flags of the final
   state are detect(sulfurs of the final state).

   Scope: the non_trivial path with debumping switched off (--nodebump): the two debump_biomolecule passes
   come after the detection and may move a free cysteine's sulfur; they are allowed after the detection
   only because args.debump controls them.  (With debumping on, the returned sulfurs can differ from the
   ones detection saw; the property does not say which of the two it means, and the harness judges the
   returned model only under --nodebump --noopt.)

   Frame conditions (Section variables - modelled, tied at run time by the rebuilt-sulfur stage of
   harness/props/c13.py, which classifies by the sulfur positions of the returned model):
     - update_ss_bridges writes the flags from the current sulfurs;
     - no other stage writes the flags;
     - a stage that is not a heavy-atom mover leaves the sulfurs where they are (update_ss_bridges
       is none: it moves nothing). *)
From Coq Require Import String List Bool Arith.
From PV Require Import Model.Pipeline.
Import ListNotations.
Local Open Scope string_scope.

Definition is_ss (d : sdesc) : bool := String.eqb (sd_name d) "update_ss_bridges".
Definition heavy_movers : list string :=
  ["get_molecule"; "drop_water"; "setup_molecule"; "repair_heavy"; "debump_biomolecule"].
Definition mover (d : sdesc) : bool := mem (sd_name d) heavy_movers.
Definition debump_guarded (d : sdesc) : bool := mem "debump" (sd_reads d).

(* after the detection: no second detection; a heavy-atom mover only under the control of args.debump *)
Definition after_ok (ds : list sdesc) : bool :=
  forallb (fun d => negb (is_ss d) && (negb (mover d) || debump_guarded d)) ds.

(* the first detection stage is not controlled by args.debump, and everything behind it is after_ok *)
Fixpoint order_ok (ds : list sdesc) : bool :=
  match ds with
  | [] => false
  | d :: r => if is_ss d then negb (debump_guarded d) && after_ok r else order_ok r
  end.

(* the stages the property needs to exist at all *)
Definition has_stage (n : string) (ds : list sdesc) : bool := existsb (fun d => String.eqb (sd_name d) n) ds.
Definition ss_order_obligation (ds : list sdesc) : bool :=
  order_ok ds && has_stage "repair_heavy" ds && has_stage "debump_biomolecule" ds.

Lemma is_ss_not_mover d : is_ss d = true -> mover d = false.
Proof. unfold is_ss, mover. intros H. apply String.eqb_eq in H. rewrite H. reflexivity. Qed.

Section Semantics.
  Variables (state S F : Type).
  Variable sulfurs : state -> S.
  Variable flags : state -> F.
  Variable detect : S -> F.
  Variable sem : sdesc -> state -> state.

  (* with --nodebump a stage controlled by args.debump does not run.  The table records only that the
     stage reads "debump", not that the test is [if args.debump:] rather than its negation; that no
     debumping pass runs with args.debump = False is observed at run time by the harness of C04 *)
  Definition step (s : state) (d : sdesc) : state := if debump_guarded d then s else sem d s.
  Definition run (ds : list sdesc) (s : state) : state := fold_left step ds s.

  Hypothesis ss_writes : forall d s, is_ss d = true -> flags (sem d s) = detect (sulfurs s).
  Hypothesis only_ss_writes_flags : forall d s, is_ss d = false -> flags (sem d s) = flags s.
  Hypothesis non_movers_keep_sulfurs : forall d s, mover d = false -> sulfurs (sem d s) = sulfurs s.

  Definition consistent (s : state) : Prop := flags s = detect (sulfurs s).

  Lemma after_ok_keeps : forall ds s, after_ok ds = true -> consistent s -> consistent (run ds s).
  Proof.
    induction ds as [|d r IH]; intros s Hok Hc; [exact Hc|].
    unfold after_ok in Hok. cbn [forallb] in Hok.
    apply andb_true_iff in Hok. destruct Hok as [Hd Hr].
    apply andb_true_iff in Hd. destruct Hd as [Hnss Hmv].
    apply negb_true_iff in Hnss.
    unfold run. cbn [fold_left]. apply IH; [exact Hr|].
    unfold step. destruct (debump_guarded d) eqn:Hg; [exact Hc|].
    rewrite orb_false_r in Hmv. apply negb_true_iff in Hmv.
    unfold consistent. rewrite (only_ss_writes_flags d s Hnss), (non_movers_keep_sulfurs d s Hmv). exact Hc.
  Qed.

  Theorem detection_sees_final_sulfurs :
    forall ds s, order_ok ds = true -> consistent (run ds s).
  Proof.
    induction ds as [|d r IH]; intros s Hok; [discriminate Hok|].
    cbn [order_ok] in Hok. unfold run. cbn [fold_left].
    destruct (is_ss d) eqn:Hss.
    - apply andb_true_iff in Hok. destruct Hok as [Hg Hr]. apply negb_true_iff in Hg.
      apply after_ok_keeps; [exact Hr|].
      unfold step. rewrite Hg. unfold consistent.
      rewrite (ss_writes d s Hss), (non_movers_keep_sulfurs d s (is_ss_not_mover d Hss)). reflexivity.
    - apply IH. exact Hok.
  Qed.
End Semantics.

(* The obligation is needed: a semantics meeting the three frame conditions and a stage list with the
   detection BEFORE repair_heavy, whose returned flags are not those of the returned sulfurs. *)
Definition w_state := (nat * nat)%type.   (* (number of sulfurs in range, flag = number seen by the detection) *)
Definition w_sem (d : sdesc) (s : w_state) : w_state :=
  if is_ss d then (fst s, fst s)
  else if String.eqb (sd_name d) "repair_heavy" then (S (fst s), snd s) else s.
Definition w_stage (n : string) : sdesc := mk_sdesc n "non_trivial" Compute [] [] [] false false.

Lemma detection_before_repair_is_wrong :
  let ds := [w_stage "update_ss_bridges"; w_stage "repair_heavy"] in
  order_ok ds = false /\
  (forall d s, is_ss d = true -> snd (w_sem d s) = fst s /\ fst (w_sem d s) = fst s) /\
  (forall d s, is_ss d = false -> snd (w_sem d s) = snd s) /\
  (forall d s, mover d = false -> fst (w_sem d s) = fst s) /\
  snd (run w_state w_sem ds (0, 0)) <> fst (run w_state w_sem ds (0, 0)).
Proof.
  cbn zeta. split; [vm_compute; reflexivity|]. split; [|split; [|split]].
  - intros d s H. unfold w_sem. rewrite H. cbn. split; reflexivity.
  - intros d s H. unfold w_sem. rewrite H. destruct (String.eqb (sd_name d) "repair_heavy"); reflexivity.
  - intros d s H. unfold w_sem. destruct (is_ss d); [reflexivity|].
    destruct (String.eqb (sd_name d) "repair_heavy") eqn:E; [|reflexivity].
    apply String.eqb_eq in E. unfold mover, heavy_movers in H. rewrite E in H. vm_compute in H. discriminate H.
  - vm_compute. discriminate.
Qed.
