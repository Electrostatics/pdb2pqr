(* C07, all line lists: nothing is dropped silently under guard2 = G1' (no line is
   the EOF sentinel) + the design guards G2, G5 (the read fails with ValueError, or
   every coordinate line of the first model yields its atom), also with
   --drop-water. *)
From Coq Require Import String Ascii List Arith NArith ZArith Bool Lia Permutation.
From PV Require Import Lib.Lists Lib.Strings Lib.Decimal Model.PdbRead Model.Group Model.PdbSpec
  Proofs.PdbRead Proofs.Group Proofs.Ingest.
Import ListNotations.
Local Open Scope string_scope.
Local Open Scope list_scope.

Section Ingest2.
  Variable fok : string -> bool.
  Variable tab : deftab.

  (* the rebuilt line is long enough for the column parser: no IndexError on it
     (parse_cols_idx_len) *)
  Lemma fallback_len s nl : fallback_line fok s = Some nl -> 26 < String.length nl.
  Proof.
    unfold fallback_line.
    destruct (find5 fok (rev (tl (tokens s))) 0 0) as [iw|]; [|discriminate].
    destruct (nth_error (tokens s) (List.length (tokens s) - 1 - iw - 1)); [|discriminate].
    destruct (nth_error (tokens s) (List.length (tokens s) - 1 - iw)); [|discriminate].
    destruct (nth_error (tokens s) (List.length (tokens s) - 1 - iw + 1)); [|discriminate].
    destruct (nth_error (tokens s) (List.length (tokens s) - 1 - iw + 2)); [|discriminate].
    destruct (nth_error (tokens s) (List.length (tokens s) - 1 - iw + 3)); [|discriminate].
    destruct (nth_error (tokens s) (List.length (tokens s) - 1 - iw + 4)); [|discriminate].
    intros H. injection H as H. subst nl. rewrite !length_app, !length_rjust. cbn [String.length]. rewrite !length_app, !length_rjust. lia.
  Qed.

  (* a line too short for the column parser without five numbers fails the read *)
  Lemma unrecoverable_raises het s :
    eff_line fok het s = None -> atom_outcome fok het s = ORaise.
  Proof.
    intros H. destruct (atom_outcome_cases fok het s) as [E|[a [l' [_ [E _]]]]]; [exact E|].
    rewrite H in E. discriminate.
  Qed.

  Theorem loud_or_complete lines :
    guard2 fok tab lines = true ->
    if existsb (raises fok) lines
    then ingest fok tab false lines = Raised "ValueError"
    else exists rs, ingest fok tab false lines = Done rs /\
           Permutation (map a_src (all_atoms rs)) (map strip (cols_read2 fok lines)).
  Proof.
    intros H. destruct (existsb (raises fok) lines) eqn:Er.
    - apply andb_true_iff in H as [Hg _]. pose proof (read_total fok lines Hg) as Rt.
      rewrite Er in Rt. unfold ingest. rewrite Rt. reflexivity.
    - destruct (ingest_lines fok tab string a_src (fun _ _ => eq_refl) (fun _ _ => eq_refl)
                  (fun _ _ => eq_refl) (fun _ _ => eq_refl) lines H Er) as [rs [sa [E [P F]]]].
      exists rs. split; [exact E|]. rewrite <- (reads2_src fok _ _ F). exact P.
  Qed.

  (* every atom carries the column fields of the fixed-column text of a selected line *)
  Theorem atom_fields2 lines rs :
    guard2 fok tab lines = true -> ingest fok tab false lines = Done rs ->
    forall a, In a (all_atoms rs) ->
      exists l l', In l (cols_read2 fok lines) /\ spec_line fok l = Some l' /\
        a_src a = strip l /\
        Some (a_serial a) = py_int (slice 6 11 l') /\
        a_chain a = strip (slice 21 22 l') /\
        Some (a_resseq a) = py_int (slice 22 26 l') /\
        a_icode a = strip (slice 26 27 l') /\
        a_x a = strip (slice 30 38 l') /\ a_y a = strip (slice 38 46 l') /\
        a_z a = strip (slice 46 54 l').
  Proof.
    intros H Hi a Ha. pose proof (loud_or_complete lines H) as L.
    destruct (existsb (raises fok) lines) eqn:Er; [rewrite L in Hi; discriminate|].
    destruct (ingest_lines fok tab _ fields (fun _ _ => eq_refl) (fun _ _ => eq_refl)
                (fun _ _ => eq_refl) (fun _ _ => eq_refl) lines H Er) as [rs' [sa [E [P F]]]].
    rewrite E in Hi. injection Hi as ->.
    destruct (fields_line (reads2 fok) _ _ _ a P F Ha) as [b [l [Il [[Rs [l' [El C]]] Eb]]]].
    exists l, l'. split; [exact Il|]. split; [exact El|]. split; [|exact (fields_cols a b l' Eb C)].
    rewrite <- Rs. unfold fields in Eb. injection Eb as E1 _. symmetry; exact E1.
  Qed.

  (* drop_water looks at the residue name only: a coordinate record whose residue
     name is not a water name survives, whatever its serial, chain or position *)
  Lemma drop_water_keeps a recs :
    In (RAtom a) recs -> mem_str (a_resname a) water_names = false -> In (RAtom a) (drop_water recs).
  Proof.
    intros Hi Hw. unfold drop_water. apply filter_In. split; [exact Hi|].
    cbn [dropped_by_drop_water]. rewrite Hw, andb_false_r. reflexivity.
  Qed.

  Lemma drop_water_removes a recs :
    tok0_ok a = true -> mem_str (a_resname a) water_names = true -> ~ In (RAtom a) (drop_water recs).
  Proof.
    intros Ht Hw Hi. unfold drop_water in Hi. apply filter_In in Hi as [_ Hf].
    cbn [dropped_by_drop_water] in Hf. unfold tok0_ok in Ht. rewrite Ht, Hw in Hf. discriminate.
  Qed.

  (* with --drop-water: loud, or exactly the non-water coordinate lines of the first
     model (first listed per identity), whatever the serial numbers *)
  Theorem drop_water_complete lines :
    forallb chunk_ok lines = true ->
    guard2 fok tab (filter (fun l => negb (is_water_line2 fok l)) lines) = true ->
    if existsb (raises fok) lines
    then ingest fok tab true lines = Raised "ValueError"
    else exists rs, ingest fok tab true lines = Done rs /\
           Permutation (map a_src (all_atoms rs))
             (map strip (cols_read2 fok (filter (fun l => negb (is_water_line2 fok l)) lines))).
  Proof.
    intros Hc Hg. destruct (existsb (raises fok) lines) eqn:Er.
    - pose proof (read_total fok lines Hc) as R. rewrite Er in R. unfold ingest. rewrite R. reflexivity.
    - rewrite (drop_water_all fok tab lines Hc Er).
      pose proof (loud_or_complete _ Hg) as L.
      rewrite (existsb_sub _ lines) in L; [exact L | | exact Er].
      intros x Hx. apply filter_In in Hx. tauto.
  Qed.

End Ingest2.
