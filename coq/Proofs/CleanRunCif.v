(* E2E_CifClean: the mmCIF route of `pdb2pqr --clean` equals the PDB route on the PDB
   rendering of the same _atom_site rows.  Composes C10 (Proofs.CifLine.atom_site_single_partial:
   one record per row, in order, nothing skipped, no exception), C07 (Proofs.Ingest.read_guarded)
   and E2E_Clean (Proofs.CleanRun.clean_run_faithful_partial). *)
From Coq Require Import String List ZArith Bool Permutation.
From PV Require Import Lib.Strings Lib.Decimal Model.PdbRead Model.Group Model.PdbSpec
  Proofs.Ingest Model.CleanRun Proofs.CleanRun Model.CleanRunCif.
From PV Require Model.PqrFormat Proofs.PqrFormat Model.CifLine Proofs.CifLine.
Import ListNotations.
Local Open Scope string_scope.
Local Open Scope list_scope.

Module PCL := PV.Proofs.CifLine.

Lemma row_fields_inv mv r l f :
  CL.row_fields mv r = CL.Ok (Some (l, f)) ->
  exists k, CL.row_line mv r = CL.Ok (Some (k, l)) /\ CL.parse_atom k l = CL.Ok f.
Proof.
  intros H. apply PCL.bind_ok_inv in H as ([[k l']|] & Hl & H); [|discriminate].
  apply PCL.bind_ok_inv in H as (f' & Hp & [= <- <-]). exists k. split; [exact Hl | exact Hp].
Qed.

Lemma parse_atom_kind k l f : CL.parse_atom k l = CL.Ok f -> CL.f_kind f = k.
Proof.
  unfold CL.parse_atom. destruct (negb _); [discriminate|]. intros H.
  apply PCL.bind_ok_inv in H as (serial & _ & H). apply PCL.bind_ok_inv in H as (alt & _ & H).
  apply PCL.bind_ok_inv in H as ([[ch sq] ic] & _ & [= <-]). reflexivity.
Qed.

Section Rows.
  Variable fok : string -> bool.
  Variable mv : CL.mvconv.

  (* a row inside [row_agree]: the record atom_site makes of it converts to exactly the
     records the PDB reader makes of the row's PDB line, and that line meets G1 *)
  Lemma row_agree_conv r l f :
    row_agree fok mv r = true -> CL.row_fields mv r = CL.Ok (Some (l, f)) ->
    conv_record fok (CL.RAtom l f) = Some (line_recs fok (CL.pdb_line_of_row r ++ nl)) /\
    g_line fok (CL.pdb_line_of_row r ++ nl) = true.
  Proof.
    intros Ha Hf. destruct (row_fields_inv mv r l f Hf) as [k [Hl Hp]].
    unfold row_agree in Ha. rewrite Hl in Ha.
    cbn [conv_record]. rewrite (parse_atom_kind k l f Hp).
    destruct (cif_atom fok k l) as [a| |]; try discriminate.
    destruct (line_recs fok (CL.pdb_line_of_row r ++ nl)) as [|[b| | |] [|x t]]; try discriminate.
    apply andb_true_iff in Ha as [Ha Hg]. rewrite (atom_eqb_eq a b Ha). split; [reflexivity | exact Hg].
  Qed.

  Lemma conv_records_rows rows recs :
    Forall2 (PCL.row_ok mv) rows recs -> forallb (row_agree fok mv) rows = true ->
    conv_records fok recs = Some (flat_map (line_recs fok) (pdb_lines rows)) /\
    forallb (g_line fok) (pdb_lines rows) = true.
  Proof.
    induction 1 as [|r rc rows recs R _ IH]; intros Ha; [split; reflexivity|].
    cbn [forallb] in Ha. apply andb_true_iff in Ha as [Hr Ht].
    destruct R as (k & serial & seq & l & f & _ & -> & Hf & _).
    destruct (row_agree_conv r l f Hr Hf) as [Hc Hg]. destruct (IH Ht) as [IH1 IH2].
    cbn [conv_records pdb_lines map flat_map forallb]. fold (pdb_lines rows).
    rewrite Hc, IH1, Hg, IH2. split; reflexivity.
  Qed.
End Rows.

Section Compose.
  Variable fok : string -> bool.
  Variable tab : deftab.
  Variable pt : ptab.
  Variable near : atomrec -> atomrec -> bool.
  Variable r3 : string -> MP.fx.

  Lemma clean_items_lines dropw keep lines recs e :
    read_pdb fok lines = Some (recs, e) ->
    clean_items fok tab pt near r3 dropw keep lines =
    clean_items_of_recs tab pt near r3 dropw keep recs.
  Proof.
    intros Hr. unfold clean_items, clean_atoms, clean_items_of_recs, ingest. rewrite Hr.
    destruct (group tab (if dropw then drop_water recs else recs)); reflexivity.
  Qed.

  (* one model, rows inside C10's guard whose records agree ([row_agree]): the CIF
     route and the PDB route print the SAME item list (atom lines with serials, TER
     positions); the two files are its two renderings *)
  Theorem cif_clean_eq_pdb_clean_partial mv dropw keep ws rows m :
    CL.mv_ok mv = true -> rows <> [] ->
    (forall r, In r rows -> CL.guard r = true /\ CL.pdbx_PDB_model_num r = CL.Tok m) ->
    forallb (row_agree fok mv) rows = true ->
    clean_items_cif fok tab pt near r3 mv dropw keep rows =
      clean_items fok tab pt near r3 dropw keep (pdb_lines rows) /\
    clean_run_cif fok tab pt near r3 mv dropw keep ws rows =
      option_map (fun its => MP.file_chunks ws true (map MP.item_text its))
                 (clean_items fok tab pt near r3 dropw keep (pdb_lines rows)) /\
    clean_run fok tab pt near r3 dropw keep ws (pdb_lines rows) =
      option_map (fun its => MP.written_chunks ws false (map MP.item_text its))
                 (clean_items fok tab pt near r3 dropw keep (pdb_lines rows)).
  Proof.
    intros Hmv Hne Hg Ha.
    destruct (PCL.atom_site_single_partial mv rows m Hmv Hne Hg) as [recs [Eo F2]].
    destruct (conv_records_rows fok mv rows recs F2 Ha) as [Hc Hgl].
    destruct (read_guarded fok (pdb_lines rows) Hgl) as [e Er].
    assert (E : clean_items_cif fok tab pt near r3 mv dropw keep rows =
                clean_items fok tab pt near r3 dropw keep (pdb_lines rows)).
    { unfold clean_items_cif, cif_recs. rewrite Eo. cbn [CL.o_exn CL.o_recs]. rewrite Hc.
      symmetry. apply (clean_items_lines dropw keep _ _ e Er). }
    split; [exact E|]. split; [|reflexivity].
    unfold clean_run_cif. rewrite E. reflexivity.
  Qed.

  (* through E2E_clean_run_faithful_partial: reading the CIF-route output back yields the
     rows' chain / resSeq / iCode / coordinates (as the PDB rendering lists them) *)
  Theorem cif_clean_faithful_partial mv keep rows m :
    CL.mv_ok mv = true -> rows <> [] ->
    (forall r, In r rows -> CL.guard r = true /\ CL.pdbx_PDB_model_num r = CL.Tok m) ->
    forallb (row_agree fok mv) rows = true ->
    e2e_guard fok tab pt near r3 (MP.fixed_ok keep) (pdb_lines rows) = true ->
    exists its,
      clean_items_cif fok tab pt near r3 mv false keep rows = Some its /\
      clean_run_cif fok tab pt near r3 mv false keep false rows =
        Some (MP.file_chunks false true (map MP.item_text its)) /\
      Permutation (map out_crec (map MP.read_fixed (PP.atom_lines its)))
                  (map (in_crec r3 keep) (cols_read (pdb_lines rows))).
  Proof.
    intros Hmv Hne Hg Ha He.
    destruct (cif_clean_eq_pdb_clean_partial mv false keep false rows m Hmv Hne Hg Ha) as [E [Er _]].
    destruct (clean_run_faithful_partial fok tab pt near r3 keep _ He) as [its [Hi [_ P]]].
    exists its. rewrite E, Er, Hi. split; [reflexivity|]. split; [reflexivity | exact P].
  Qed.

  (* shape of the CIF-route file, ALL inputs: the chunks print_pqr keeps of the item list,
     then the "#" line *)
  Theorem cif_file_shape mv dropw keep ws rows its :
    clean_items_cif fok tab pt near r3 mv dropw keep rows = Some its ->
    clean_run_cif fok tab pt near r3 mv dropw keep ws rows =
      Some (MP.written_chunks ws true (map MP.item_text its) ++ [("#" ++ nl)%string]).
  Proof. intros H. unfold clean_run_cif. rewrite H. reflexivity. Qed.
End Compose.

Local Open Scope string_scope.

(* ASN A -2 with insertion code B (alt-locs on CA, the 4-character name HD21), GLY A 9996,
   a zinc HETATM group and a water in chain B *)
Definition ex_rows : list CL.row :=
  [ CL.mk "ATOM" "1" "N" "N" CL.Dot "ASN" "A" (CL.Tok "B") "-10.123" "16.581" "2.104" "1.00" "20.55" CL.Qm "-2" "ASN" "A" "N";
    CL.mk "ATOM" "2" "C" "CA" (CL.Tok "A") "ASN" "A" (CL.Tok "B") "-11.000" "16.000" "2.000" "0.50" "20.55" CL.Qm "-2" "ASN" "A" "CA";
    CL.mk "ATOM" "3" "C" "CA" (CL.Tok "B") "ASN" "A" (CL.Tok "B") "-11.500" "16.000" "2.000" "0.50" "20.55" CL.Qm "-2" "ASN" "A" "CA";
    CL.mk "ATOM" "4" "H" "HD21" CL.Dot "ASN" "A" (CL.Tok "B") "-100.123" "1.000" "-0.001" "1.00" "20.55" CL.Qm "-2" "ASN" "A" "HD21";
    CL.mk "ATOM" "5" "N" "N" CL.Dot "GLY" "A" CL.Qm "1.000" "2.000" "3.000" "1.00" "5.10" CL.Dot "9996" "GLY" "A" "N";
    CL.mk "HETATM" "6" "ZN" "ZN" CL.Dot "ZN" "B" CL.Qm "4.000" "5.000" "6.000" "1.00" "5.10" (CL.Tok "0") "301" "ZN" "B" "ZN";
    CL.mk "HETATM" "7" "O" "O" CL.Dot "HOH" "B" CL.Qm "21.000" "12.000" "13.000" "1.00" "5.10" CL.Qm "401" "HOH" "B" "O" ].

Definition ex_cif_out : string :=
  "ATOM      1  N   ASN A  -2B    -10.123  16.581   2.104  0.0000 0.0000" ++ nl ++
  "ATOM      2  CA  ASN A  -2B    -11.000  16.000   2.000  0.0000 0.0000" ++ nl ++
  "ATOM      3 HD21 ASN A  -2B   -100.123   1.000  -0.001  0.0000 0.0000" ++ nl ++
  "ATOM      4  N   GLY A9996       1.000   2.000   3.000  0.0000 0.0000" ++ nl ++
  "HETATM    5  ZN  ZN  B 301       4.000   5.000   6.000  0.0000 0.0000" ++ nl ++
  "HETATM    6  O   HOH B 401      21.000  12.000  13.000  0.0000 0.0000" ++ nl ++
  "#" ++ nl.

(* the same rows twice: model 1 and (with x moved) model 2, as atom_site regroups them *)
Definition with_model (m : string) (r : CL.row) : CL.row :=
  CL.mkrow (CL.group_PDB r) (CL.id r) (CL.type_symbol r) (CL.label_atom_id r) (CL.label_alt_id r)
           (CL.label_comp_id r) (CL.label_asym_id r) (CL.pdbx_PDB_ins_code r) (CL.Tok "50.000") (CL.Cartn_y r)
           (CL.Cartn_z r) (CL.occupancy r) (CL.B_iso_or_equiv r) (CL.pdbx_formal_charge r) (CL.auth_seq_id r)
           (CL.auth_comp_id r) (CL.auth_asym_id r) (CL.auth_atom_id r) (CL.Tok m).
Definition ex_rows_2models : list CL.row := ex_rows ++ map (with_model "2") ex_rows.

Lemma ex_cif_ok :
  forallb CL.guard ex_rows = true /\
  forallb (row_agree py_float_ok CL.mv_installed) ex_rows = true /\
  forallb (row_agree py_float_ok CL.mv_legacy) ex_rows = true /\
  forallb (row_syntactic py_float_ok) ex_rows = true /\
  e2e_guard py_float_ok etab ept near_dec er3 (MP.fixed_ok true) (pdb_lines ex_rows) = true /\
  List.length (cols_read (pdb_lines ex_rows)) = 6 /\
  clean_file_cif py_float_ok etab ept near_dec er3 CL.mv_installed false true false ex_rows = Some ex_cif_out /\
  clean_file_cif py_float_ok etab ept near_dec er3 CL.mv_legacy false true false ex_rows = Some ex_cif_out /\
  (* several models (explored, no universal theorem): the second model is ignored on both routes *)
  clean_file_cif py_float_ok etab ept near_dec er3 CL.mv_installed false true false ex_rows_2models = Some ex_cif_out /\
  option_map (fun its => PP.atom_lines its)
    (clean_items py_float_ok etab ept near_dec er3 false true (pdb_lines_models ex_rows_2models)) =
  option_map (fun its => PP.atom_lines its)
    (clean_items_cif py_float_ok etab ept near_dec er3 CL.mv_installed false true ex_rows_2models).
Proof. vm_compute. repeat split; reflexivity. Qed.
