(* Proofs about the cell-list model (C14). *)
From Coq Require Import ZArith List Bool Arith Lia.
From PV Require Import Lib.Lists Model.Cells.
Import ListNotations.
Local Open Scope Z_scope.

Lemma div_step S a b : 0 < S -> a <= b <= a + S -> a / S <= b / S <= a / S + 1.
Proof.
  intros HS H. split.
  - apply Z.div_le_mono; lia.
  - rewrite <- (Z.div_add a 1 S) by lia. apply Z.div_le_mono; lia.
Qed.

Lemma div_close S a b : 0 < S -> a <= b -> b - a < S -> a / S <= b / S <= a / S + 1.
Proof. intros. apply div_step; lia. Qed.

Lemma neg_div size n : 0 < size -> 0 <= n -> (- n - 1) / size = - (n / size) - 1.
Proof.
  intros Hs Hn. symmetry.
  apply (Z.div_unique_pos (- n - 1) size (- (n / size) - 1) (size - n mod size - 1)).
  - pose proof (Z.mod_pos_bound n size Hs). lia.
  - pose proof (Z.div_mod n size ltac:(lia)). nia.
Qed.

(* the code's two-step bucket is the cell index of width D*size, times size *)
Theorem key_code_idx size D m :
  0 < size -> 0 < D -> key_code size D m = idx (D * size) m * size.
Proof.
  intros Hs HD. unfold key_code, idx. destruct (m <? 0) eqn:E.
  - apply Z.ltb_lt in E.
    replace m with (- (- m)) at 1 by lia.
    rewrite Z.quot_opp_l by lia. rewrite Z.quot_div_nonneg by lia.
    rewrite neg_div by (try apply Z.div_pos; lia).
    rewrite Z.div_div by lia. reflexivity.
  - apply Z.ltb_ge in E. rewrite Z.quot_div_nonneg by lia.
    rewrite Z.div_div by lia. reflexivity.
Qed.

(* idx is floor division of the coordinate moved down by one below zero *)
Definition shift (m : Z) : Z := if m <? 0 then m - 1 else m.

Lemma idx_shift S m : 0 < S -> idx S m = shift m / S.
Proof.
  intros HS. unfold idx, shift. destruct (Z.ltb_spec m 0); [|reflexivity].
  rewrite <- neg_div by lia. f_equal. lia.
Qed.

Lemma shift_close a b : a <= b -> shift a <= shift b <= shift a + (b - a) + 1.
Proof. unfold shift. destruct (Z.ltb_spec a 0), (Z.ltb_spec b 0); lia. Qed.

Theorem idx_mono S m1 m2 : 0 < S -> m1 <= m2 -> idx S m1 <= idx S m2.
Proof.
  intros HS H. rewrite !idx_shift by assumption.
  apply Z.div_le_mono; [lia | apply shift_close, H].
Qed.

Theorem idx_adjacent S m1 m2 :
  0 < S -> Z.abs (m1 - m2) < S -> Z.abs (idx S m1 - idx S m2) <= 1.
Proof.
  intros HS H. rewrite !idx_shift by assumption.
  destruct (Z.le_ge_cases m1 m2) as [L | L]; apply shift_close in L.
  - pose proof (div_step S (shift m1) (shift m2) HS). lia.
  - pose proof (div_step S (shift m2) (shift m1) HS). lia.
Qed.

Lemma key_code_close size D c m1 m2 :
  0 < size -> 0 < D -> 0 <= c <= D * size -> (m1 - m2) * (m1 - m2) < c * c ->
  In (key_code size D m2 - key_code size D m1) (offsets size).
Proof.
  intros Hs HD Hc H. rewrite !key_code_idx, <- Z.mul_sub_distr_r by assumption.
  pose proof (idx_adjacent (D * size) m1 m2 ltac:(nia) ltac:(nia)) as A.
  assert (idx (D * size) m2 - idx (D * size) m1 = -1 \/
          idx (D * size) m2 - idx (D * size) m1 = 0 \/
          idx (D * size) m2 - idx (D * size) m1 = 1) as [-> | [-> | ->]] by lia;
    cbn [offsets In]; lia.
Qed.

Lemma key_eqb_eq a b : key_eqb a b = true <-> a = b.
Proof.
  destruct a as [[a1 a2] a3], b as [[b1 b2] b3]. unfold key_eqb.
  rewrite !andb_true_iff, !Z.eqb_eq. split.
  - intros [[-> ->] ->]. reflexivity.
  - intros [= -> -> ->]. auto.
Qed.

Lemma key_eqb_refl a : key_eqb a a = true.
Proof. apply key_eqb_eq. reflexivity. Qed.

Lemma key_eqb_neq a b : a <> b -> key_eqb a b = false.
Proof. intros H. destruct (key_eqb a b) eqn:E; [apply key_eqb_eq in E; contradiction | reflexivity]. Qed.

Lemma key_dec (a b : key) : {a = b} + {a <> b}.
Proof. repeat decide equality. Qed.

Lemma upd_key_same {B} (f : key -> B) k v : upd key_eqb f k v k = v.
Proof. unfold upd. now rewrite key_eqb_refl. Qed.

Lemma upd_key_other {B} (f : key -> B) k v k' : k <> k' -> upd key_eqb f k v k' = f k'.
Proof. intros H. unfold upd. now rewrite key_eqb_neq. Qed.

Lemma upd_nat_same {B} (f : nat -> B) a v : upd Nat.eqb f a v a = v.
Proof. unfold upd. now rewrite Nat.eqb_refl. Qed.

Lemma upd_nat_other {B} (f : nat -> B) a v b : a <> b -> upd Nat.eqb f a v b = f b.
Proof. intros H. unfold upd. apply Nat.eqb_neq in H. now rewrite H. Qed.

Lemma remove_first_in a b l : In b (remove_first a l) -> In b l.
Proof.
  induction l as [|x r IH]; simpl; [tauto|].
  destruct (Nat.eqb a x); simpl; intuition.
Qed.

Lemma remove_first_nodup a l : NoDup l -> NoDup (remove_first a l) /\ ~ In a (remove_first a l).
Proof.
  induction 1 as [|x r Hx Hr IH]; simpl.
  - split; [constructor | tauto].
  - destruct (Nat.eqb a x) eqn:E.
    + apply Nat.eqb_eq in E. subst x. split; assumption.
    + apply Nat.eqb_neq in E. destruct IH as [IH1 IH2]. split.
      * constructor; [|assumption]. intros H. apply Hx. eapply remove_first_in; eauto.
      * simpl. intuition.
Qed.

Lemma remove_first_keep a b l : a <> b -> In b l -> In b (remove_first a l).
Proof.
  intros Hab. induction l as [|x r IH]; simpl; [tauto|].
  destruct (Nat.eqb a x) eqn:E.
  - apply Nat.eqb_eq in E. subst x. intros [H | H]; [congruence | assumption].
  - simpl. intuition.
Qed.

Section Inv.
  Variables size D : Z.
  Hypothesis Hsize : 0 < size.
  Hypothesis HD : 0 < D.

  Definition registered (s : state) (a : nat) : Prop := cell_of s a <> None.

  Record Inv (s : state) : Prop := {
    inv_fresh : forall a k, cell_of s a = Some k -> k = key_of size D (posn s a);
    inv_in : forall a k, cell_of s a = Some k -> In a (cellmap s k);
    inv_back : forall a k, In a (cellmap s k) -> cell_of s a = Some k;
    inv_nodup : forall k, NoDup (cellmap s k)
  }.

  Lemma inv_init p0 : Inv (init p0).
  Proof. split; simpl; try discriminate; try tauto. constructor. Qed.

  (* the discipline under which the cell map stays truthful *)
  Definition disciplined (s : state) (o : op) : Prop :=
    match o with
    | Add a => cell_of s a = None
    | Remove _ => True
    | Move a _ => cell_of s a = None
    end.

  Lemma inv_add s a : Inv s -> cell_of s a = None -> Inv (add_cell size D s a).
  Proof.
    intros [F I B N] Ha. unfold add_cell.
    set (k := key_of size D (posn s a)).
    split; cbn [cellmap cell_of posn].
    - intros b kb H. destruct (Nat.eq_dec a b) as [<- | Hab].
      + rewrite upd_nat_same in H. injection H as <-. reflexivity.
      + rewrite upd_nat_other in H by assumption. auto.
    - intros b kb H. destruct (Nat.eq_dec a b) as [<- | Hab].
      + rewrite upd_nat_same in H. injection H as <-. rewrite upd_key_same.
        apply in_or_app. right. left. reflexivity.
      + rewrite upd_nat_other in H by assumption.
        destruct (key_dec k kb) as [<- | Hk].
        * rewrite upd_key_same. apply in_or_app. left. auto.
        * rewrite upd_key_other by assumption. auto.
    - intros b kb H. destruct (key_dec k kb) as [<- | Hk].
      + rewrite upd_key_same in H. apply in_app_or in H as [H | [<- | []]].
        * assert (a <> b) by (intros <-; rewrite (B _ _ H) in Ha; discriminate).
          rewrite upd_nat_other by assumption. auto.
        * now rewrite upd_nat_same.
      + rewrite upd_key_other in H by assumption.
        assert (a <> b) by (intros <-; rewrite (B _ _ H) in Ha; discriminate).
        rewrite upd_nat_other by assumption. auto.
    - intros kb. destruct (key_dec k kb) as [<- | Hk].
      + rewrite upd_key_same. apply NoDup_app_intro; [apply N | repeat constructor; simpl; tauto |].
        intros x Hx [<- | []]. rewrite (B _ _ Hx) in Ha. discriminate.
      + rewrite upd_key_other by assumption. apply N.
  Qed.

  Lemma inv_remove s a : Inv s -> Inv (remove_cell s a).
  Proof.
    intros [F I B N]. unfold remove_cell. destruct (cell_of s a) as [k|] eqn:Ha.
    2: { split; assumption. }
    destruct (remove_first_nodup a _ (N k)) as [N1 N2].
    split; cbn [cellmap cell_of posn].
    - intros b kb H. destruct (Nat.eq_dec a b) as [<- | Hab].
      + rewrite upd_nat_same in H. discriminate.
      + rewrite upd_nat_other in H by assumption. auto.
    - intros b kb H. destruct (Nat.eq_dec a b) as [<- | Hab].
      + rewrite upd_nat_same in H. discriminate.
      + rewrite upd_nat_other in H by assumption.
        destruct (key_dec k kb) as [<- | Hk].
        * rewrite upd_key_same. apply remove_first_keep; auto.
        * rewrite upd_key_other by assumption. auto.
    - intros b kb H. destruct (key_dec k kb) as [<- | Hk].
      + rewrite upd_key_same in H.
        assert (a <> b) by (intros <-; contradiction).
        rewrite upd_nat_other by assumption. apply B. eapply remove_first_in; eauto.
      + rewrite upd_key_other in H by assumption.
        assert (a <> b) by (intros <-; rewrite (B _ _ H) in Ha; congruence).
        rewrite upd_nat_other by assumption. auto.
    - intros kb. destruct (key_dec k kb) as [<- | Hk].
      + now rewrite upd_key_same.
      + rewrite upd_key_other by assumption. apply N.
  Qed.

  (* the invariant reads the coordinates of registered atoms only *)
  Lemma inv_posn s p : Inv s -> (forall a, cell_of s a <> None -> p a = posn s a) ->
    Inv (mk (cellmap s) (cell_of s) p).
  Proof.
    intros [F I B N] H. split; cbn [cellmap cell_of posn]; try assumption.
    intros a k E. rewrite H by congruence. auto.
  Qed.

  Lemma inv_move s a p : Inv s -> cell_of s a = None -> Inv (move s a p).
  Proof.
    intros HI Ha. apply inv_posn; [exact HI|].
    intros b Hb. apply upd_nat_other. congruence.
  Qed.

  Theorem inv_step s o : Inv s -> disciplined s o -> Inv (step size D s o).
  Proof.
    intros HI Hd. destruct o as [a | a | a p]; cbn [step].
    - apply inv_add; assumption.
    - apply inv_remove; assumption.
    - apply inv_move; assumption.
  Qed.

  (* discipline along a whole history *)
  Fixpoint disciplined_run (s : state) (ops : list op) : Prop :=
    match ops with
    | [] => True
    | o :: r => disciplined s o /\ disciplined_run (step size D s o) r
    end.

  Theorem inv_run ops : forall s, Inv s -> disciplined_run s ops -> Inv (run size D s ops).
  Proof.
    induction ops as [|o r IH]; intros s HI Hd; [exact HI|].
    destruct Hd as [Ho Hr]. cbn [run fold_left]. apply IH; [apply inv_step|]; assumption.
  Qed.

  Lemma in_neighbour_keys x y z x' y' z' :
    In (x' - x) (offsets size) -> In (y' - y) (offsets size) -> In (z' - z) (offsets size) ->
    In (x', y', z') (neighbour_keys size (x, y, z)).
  Proof.
    intros Hx Hy Hz. unfold neighbour_keys.
    apply in_flat_map. exists (x' - x). split; [assumption|].
    apply in_flat_map. exists (y' - y). split; [assumption|].
    apply in_map_iff. exists (z' - z). split; [f_equal; [f_equal|]; lia | assumption].
  Qed.

  Lemma close_keys c p q :
    0 <= c <= D * size -> sqdist p q <? c * c = true ->
    In (key_of size D q) (neighbour_keys size (key_of size D p)).
  Proof.
    intros Hc H. apply Z.ltb_lt in H.
    destruct p as [[x1 y1] z1], q as [[x2 y2] z2]. unfold sqdist in H. cbn [key_of].
    pose proof (Z.square_nonneg (x1 - x2)). pose proof (Z.square_nonneg (y1 - y2)).
    pose proof (Z.square_nonneg (z1 - z2)).
    apply in_neighbour_keys; apply (key_code_close size D c); try assumption; lia.
  Qed.
  (* completeness: every registered atom closer than the cutoff is returned *)
  Theorem query_complete s a b c :
    Inv s -> 0 <= c <= D * size ->
    registered s a -> registered s b -> b <> a ->
    within c s a b = true ->
    In b (get_near_cells size s a).
  Proof.
    intros [F I B N] Hc Ra Rb Hne Hw. unfold registered in *. unfold get_near_cells.
    destruct (cell_of s a) as [ka|] eqn:Ea; [|congruence].
    destruct (cell_of s b) as [kb|] eqn:Eb; [|congruence].
    apply in_flat_map. exists kb. split.
    - rewrite (F _ _ Ea), (F _ _ Eb). eapply close_keys; eauto.
    - apply filter_In. split; [auto|].
      apply negb_true_iff. apply Nat.eqb_neq. congruence.
  Qed.

  (* soundness: nothing but registered other atoms is returned *)
  Theorem query_sound s a b :
    Inv s -> In b (get_near_cells size s a) -> registered s b /\ b <> a.
  Proof.
    intros [F I B N] H. unfold get_near_cells in H.
    destruct (cell_of s a) as [ka|]; [|contradiction].
    apply in_flat_map in H as [k [_ H]]. apply filter_In in H as [H1 H2].
    split.
    - unfold registered. rewrite (B _ _ H1). discriminate.
    - apply negb_true_iff, Nat.eqb_neq in H2. congruence.
  Qed.

  (* after distance filtering the answer is the brute-force all-pairs answer *)
  Theorem query_exact s a b c :
    Inv s -> 0 <= c <= D * size -> registered s a ->
    (In b (filter (within c s a) (get_near_cells size s a)) <->
     registered s b /\ b <> a /\ within c s a b = true).
  Proof.
    intros HI Hc Ra. rewrite filter_In. split.
    - intros [H1 H2]. destruct (query_sound _ _ _ HI H1). auto.
    - intros [Rb [Hne Hw]]. split; [|assumption]. eapply query_complete; eauto.
  Qed.

  Lemma offsets_nodup : NoDup (offsets size).
  Proof.
    unfold offsets. repeat constructor; simpl; intuition lia.
  Qed.

  Lemma neighbour_keys_nodup k : NoDup (neighbour_keys size k).
  Proof.
    destruct k as [[x y] z]. unfold neighbour_keys.
    apply NoDup_flat_map; [apply offsets_nodup | |].
    - intros i _. apply NoDup_flat_map; [apply offsets_nodup | |].
      + intros j _. apply NoDup_map_inj; [|apply offsets_nodup].
        intros a b [= H]. lia.
      + intros j1 j2 b _ _ H1 H2. apply in_map_iff in H1 as [l1 [<- _]].
        apply in_map_iff in H2 as [l2 [[= E1 E2] _]]. lia.
    - intros i1 i2 b _ _ H1 H2.
      apply in_flat_map in H1 as [j1 [_ H1]]. apply in_map_iff in H1 as [l1 [<- _]].
      apply in_flat_map in H2 as [j2 [_ H2]]. apply in_map_iff in H2 as [l2 [[= E1 E2 E3] _]]. lia.
  Qed.

  (* no atom is reported twice: the 27 neighbour keys are distinct, each cell list has
     no duplicates, and an atom is in the list of one cell only *)
  Theorem query_nodup s a : Inv s -> NoDup (get_near_cells size s a).
  Proof.
    intros [F I B N]. unfold get_near_cells. destruct (cell_of s a) as [ka|]; [|constructor].
    apply NoDup_flat_map; [apply neighbour_keys_nodup | |].
    - intros k _. apply NoDup_filter. apply N.
    - intros k1 k2 b _ _ H1 H2. apply filter_In in H1 as [H1 _]. apply filter_In in H2 as [H2 _].
      apply B in H1. apply B in H2. congruence.
  Qed.

  (* the statement for every state reachable by a disciplined history *)
  Theorem reachable_query_exact p0 ops a b c :
    disciplined_run (init p0) ops ->
    0 <= c <= D * size ->
    let s := run size D (init p0) ops in
    registered s a ->
    (In b (filter (within c s a) (get_near_cells size s a)) <->
     registered s b /\ b <> a /\ within c s a b = true) /\
    NoDup (get_near_cells size s a).
  Proof.
    intros Hd Hc s Ra.
    assert (HI : Inv s) by (apply inv_run; [apply inv_init | assumption]).
    split; [apply query_exact; assumption | apply query_nodup; assumption].
  Qed.
End Inv.

(* Without the discipline the property fails: an atom moved while registered
   is missed by a query although it is within range. size 5, D 1. *)
Theorem undisciplined_miss :
  exists (p0 : nat -> pos) (ops : list op) (a b : nat),
    let s := run 5 1 (init p0) ops in
    cell_of s a <> None /\ cell_of s b <> None /\ b <> a /\
    within 5 s a b = true /\ ~ In b (get_near_cells 5 s a).
Proof.
  exists (fun n => if Nat.eqb n 0 then (0, 0, 0) else (100, 0, 0)).
  exists [Add 0%nat; Add 1%nat; Move 1%nat (1, 0, 0)], 0%nat, 1%nat.
  vm_compute. intuition discriminate.
Qed.

(* non-vacuity: a disciplined history with a non-empty answer *)
Example nonvacuous :
  let p0 := fun n : nat => match n with 0%nat => (-3, 0, 7) | 1%nat => (1, -4, 9) | _ => (40, 40, 40) end in
  let ops := [Add 0%nat; Add 1%nat; Add 2%nat; Remove 1%nat; Move 1%nat (1, -2, 9); Add 1%nat] in
  disciplined_run 5 1 (init p0) ops /\
  filter (within 5 (run 5 1 (init p0) ops) 0%nat) (get_near_cells 5 (run 5 1 (init p0) ops) 0%nat) = [1%nat].
Proof. vm_compute. repeat split; reflexivity. Qed.
