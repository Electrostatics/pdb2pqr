(* C05 - atoms added by pdb2pqr have template-consistent bonded geometry.
   Property theorems only.  Proofs: Proofs/Placement.v (on top of Proofs/Quatfit.v
   = C15 and Proofs/Moves.v = C04); generated tables Generated/MovesTable.v and
   Generated/C05Table.v are rebuilt from /repo's topology files on every run.

   Conventions (Model/Quatfit.v, real-number instance RA): [rigid M T x] = T + rotmol(M) x;
   [dist2] = squared distance; [rotate_about c s o a p] = what Residue.rotate_tetrahedral /
   Debump.set_dihedral_angle do to one moved atom p (origin o, axis o -> a, cos c, sin s);
   [eigen_contract] = the Jacobi solver returned a unit maximiser (checked per call at run
   time by C15's monitor, a hypothesis here).

   NOT proved (explored by the search of harness/props/c05.py, labelled so there):
   "within the distortion already present in the input" (how far the placed atom is off
   when the structure neighbours are NOT an exact image of the template's), the staggering
   of LEU/ILE methyls, the under-determined 2-point fits (find_coordinates 2), float rounding. *)
From Coq Require Import Reals List ZArith PArith Bool String.
From PV Require Import Model.ForceField Model.Topology Model.Moves Model.Quatfit Model.Placement.
From PV Require Import Proofs.Moves Proofs.Quatfit Proofs.Placement.
From PV Require Import Generated.Topology Generated.MovesTable Generated.C05Table.
Import ListNotations.

(* the n-point superposition used by add_hydrogens / repair_heavy / switchstate: if the
   structure neighbours are an exact proper rigid image of the template's (>= 3,
   non-collinear) the placed atom has EXACTLY the template's distance to every one of them
   - so the template bond length to its parent - and the template's bond angles (cosine
   numerator and both side lengths), for ALL templates, points, rotations, translations *)
Theorem C05_fit3_exact_geometry : forall (defs : list (pt (A := R))) (p : quat (A := R)) (T atom : pt (A := R)),
  qnorm2 RA p = 1%R -> noncollinear defs ->
  let image := rigid (q2mat RA p) T in
  let refs := map image defs in
  let defrel := snd (center RA defs) in
  let refrel := snd (center RA refs) in
  eigen_contract defrel refrel (qtrfit_quat RA NROT defrel refrel) ->
  exists X, find_coordinates RA (List.length defs) refs defs atom = Some X /\
    (forall d, dist2 X (image d) = dist2 atom d) /\
    (forall d d', dist2 (image d') (image d) = dist2 d' d /\
                  dot3 RA (psub RA X (image d)) (psub RA (image d') (image d))
                  = dot3 RA (psub RA atom d) (psub RA d' d)).
Proof. exact fit3_exact_geometry. Qed.

(* rebuild_tetrahedral / get_positions_with_two_bonds / get_position_with_three_bonds:
   rotating an existing atom h by +-120 degrees about the bond o -> a (a = its parent)
   keeps the bond length h - a and the distance h - o (bond angle h - a - o) and lands at
   squared distance 3 rho^2 from h (rho = distance of h to the axis): no coincident atoms *)
Theorem C05_tetra_120 : forall (c s : R) (o a h : pt (A := R)),
  dot3 RA (psub RA a o) (psub RA a o) <> 0%R -> c = (- (1 / 2))%R -> (s * s = 3 / 4)%R ->
  let h' := rotate_about RA c s o a h in
  let l := normalize RA (psub RA a o) in
  let rho2 := (dot3 RA (psub RA h o) (psub RA h o) - dot3 RA l (psub RA h o) * dot3 RA l (psub RA h o))%R in
  dist2 h' a = dist2 h a /\ dist2 h' o = dist2 h o /\
  dist2 h' h = (3 * rho2)%R /\ ((rho2 > 0)%R -> h' <> h).
Proof. exact tetra_120_about. Qed.

(* rebuild_tetrahedral with two of three hydrogens present (numbonds = 3) and
   get_position_with_three_bonds: n1 = h0 rotated by 120 degrees, n2 = n1 rotated again;
   n1 is taken unless the second existing hydrogen is within thr (0.1 A) of it.  If the two
   existing hydrogens are 120 degrees apart about the bond (h1 on n1 or on n2) and further
   than thr from each other, the new atom is at squared distance 3 rho^2 from BOTH existing
   hydrogens (never on top of either), at h0's bond length from the parent a and h0's
   distance from the axis atom o (bond angle) *)
Theorem C05_tetra3_choice : forall (thr c s : R) (o a h0 h1 : pt (A := R)),
  dot3 RA (psub RA a o) (psub RA a o) <> 0%R -> c = (- (1 / 2))%R -> (s * s = 3 / 4)%R ->
  let n1 := rotate_about RA c s o a h0 in
  let n2 := rotate_about RA c s o a n1 in
  let l := normalize RA (psub RA a o) in
  let rho2 := (dot3 RA (psub RA h0 o) (psub RA h0 o) - dot3 RA l (psub RA h0 o) * dot3 RA l (psub RA h0 o))%R in
  (0 < thr)%R -> (thr * thr < 3 * rho2)%R -> (h1 = n1 \/ h1 = n2) ->
  let x := rebuild3 RA thr c s o a h0 h1 in
  dist2 x h0 = (3 * rho2)%R /\ dist2 x h1 = (3 * rho2)%R /\ x <> h0 /\ x <> h1 /\
  dist2 x a = dist2 h0 a /\ dist2 x o = dist2 h0 o.
Proof. exact tetra3_choice. Qed.

(* every optimisation move is a rotation about a bond through the parent a: it keeps
   the distance to a, the distance to the other axis atom o, the bond angle p - a - o,
   and all distances between atoms moved together - for ALL points and ALL angles *)
Theorem C05_rotation_keeps_parent_geometry : forall (c s : R) (o a p : pt (A := R)),
  dot3 RA (psub RA a o) (psub RA a o) <> 0%R -> (c * c + s * s = 1)%R ->
  let p' := rotate_about RA c s o a p in
  dist2 p' a = dist2 p a /\ dist2 p' o = dist2 p o /\
  dot3 RA (psub RA p' a) (psub RA o a) = dot3 RA (psub RA p a) (psub RA o a) /\
  (forall q, dist2 p' (rotate_about RA c s o a q) = dist2 p q).
Proof. exact rotation_keeps_parent_geometry. Qed.

(* which template neighbours add_hydrogens / repair_heavy hand to the fit (name level, ANY bond
   graph and presence predicate): exactly three names, each a present atom of get_nearest_bonds,
   namely the first three present ones ... *)
Theorem C05_fit_neighbours : forall (g : graph) (present : id -> bool) (x : id) (l : list id),
  fit_names g present x = Some l ->
  List.length l = 3%nat /\
  (forall b, In b l -> In b (nearest_bonds g x) /\ present b = true) /\
  l = firstn 3 (filter present (nearest_bonds g x)).
Proof. exact fit_neighbours_sound. Qed.

(* ... so with an absent peptide pointer (chain break, terminus) the pseudo atom N+1 / C-1 is
   never used as a neighbour *)
Theorem C05_fit_skips_absent_pointer : forall (g : graph) (np1 cm1 : id) (has_pn has_pc : bool) (atoms : list id) (x : id) (l : list id),
  fit_names g (present_in np1 cm1 has_pn has_pc atoms) x = Some l ->
  (has_pn = false -> ~ In np1 l) /\ (has_pc = false -> np1 <> cm1 -> ~ In cm1 l).
Proof. exact fit_skips_absent_pointer. Qed.

(* Optimize.make_atom_with_no_bonds / Water.finalize: the hydrogen / lone pair of a water
   oxygen without bonds is put exactly 1 A from it *)
Theorem C05_unit_placement : forall o from_ to_ : pt (A := R),
  dot3 RA (psub RA to_ from_) (psub RA to_ from_) <> 0%R ->
  dist2 (unit_place RA o from_ to_) o = 1%R.
Proof. exact unit_placement. Qed.

(* generated obligation: for EVERY amino-acid template (all terminal and protonation
   variants) x EVERY dihedral x all four terminus-flag combinations, the set moved by
   set_reference_distance + get_moveable_names is, over ALL atoms including hydrogens,
   exactly the bond-graph component beyond the pivot bond, the axis atoms stay, and every
   moved hydrogen has its bonded atom moved with it (or bonded to the pivot) *)
Theorem C05_all_atom_subtree_table : forall p, In p pairs -> forall nt ct : bool,
  exact_dihedral hyd nm nt ct (tgraph (fst p)) (snd p) = true.
Proof. exact all_atom_subtree_table. Qed.

(* what that boolean implies, for ANY bond graph and selection *)
Theorem C05_hydrogens_move_with_parents : forall (hy : list id) (g : graph) (b c : id) (M : list id),
  exact_subtree hy g b c M = true ->
  (forall h, In h M -> In h hy -> forall p, In p (nbrs g h) -> In p M \/ p = c) /\
  (forall a, In a M <-> In a (beyond g b c)) /\ ~ In b M /\ ~ In c M.
Proof. exact exact_subtree_meaning. Qed.

(* FULL statement for the selection used before fix a31aee4 (rank only) is FALSE:
   on at least 100 (template, dihedral) pairs it rotated a hydrogen without its parent
   (known finding C05-F6, fixed) *)
Theorem C05_rank_selection_refuted :
  existsb (orphan_pair false false) pairs = true /\
  Nat.leb 100 (List.length (filter (fun p => orphan_pair false false p || orphan_pair true false p ||
                                              orphan_pair false true p || orphan_pair true true p) pairs)) = true.
Proof. exact rank_selection_refuted. Qed.

(* generated obligation: in every template atoms are placed from (amino acids incl. all
   variants, nucleotides, water) every atom has a bonded parent, all template bond lengths
   are within 0.90 .. 1.90 A and no two template atoms are closer than 0.80 A - except
   NPRO's H3, which the template puts on top of CD (pdb2pqr never builds it) *)
Theorem C05_template_geometry_table : forall t x, In t gtemplates -> In x (snd t) ->
  ~ In (fst t, fst (fst x)) geom_exceptions ->
  gatom_ok 810000000000 3610000000000 640000000000 t x = true.
Proof. exact template_geometry_table. Qed.

Example C05_nonvacuous :
  Nat.leb 100 (List.length pairs) = true /\ Nat.leb 100 (List.length gtemplates) = true /\
  existsb (fun p => Nat.leb 3 (List.length (beyond (tgraph (fst p)) (let '(_, b, _, _) := snd p in b)
                                                    (let '(_, _, c, _) := snd p in c)))) pairs = true /\
  existsb (fun t => Pos.eqb (fst t) (id_of "WAT"%string)) gtemplates = true.
Proof. exact c05_nonvacuous. Qed.

Print Assumptions C05_fit3_exact_geometry.
Print Assumptions C05_tetra_120.
Print Assumptions C05_tetra3_choice.
Print Assumptions C05_rotation_keeps_parent_geometry.
Print Assumptions C05_fit_neighbours.
Print Assumptions C05_fit_skips_absent_pointer.
Print Assumptions C05_unit_placement.
Print Assumptions C05_all_atom_subtree_table.
Print Assumptions C05_hydrogens_move_with_parents.
Print Assumptions C05_rank_selection_refuted.
Print Assumptions C05_template_geometry_table.
Print Assumptions C05_nonvacuous.
