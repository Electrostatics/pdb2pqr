(* C11 - lemmas about the survivors/entropy abstraction (Model/History.v). *)
From Coq Require Import String List Bool Arith.
From PV Require Import Lib.Lists Model.History.
Import ListNotations.
Local Open Scope string_scope.

Lemma survivor_obligation_sound (t : list surv) :
  survivor_obligation t = true ->
  forall id, flows t id = true -> written t id = false.
Proof.
  intros Hob id Hf.
  destruct (written t id) eqn:Hw; [|reflexivity].
  exfalso.
  pose proof Hw as Hw0.
  unfold written in Hw0. apply existsb_exists in Hw0.
  destruct Hw0 as [s [Hin Hs]].
  apply andb_true_iff in Hs. destruct Hs as [Hid _].
  apply String.eqb_eq in Hid.
  unfold survivor_obligation in Hob.
  rewrite forallb_forall in Hob. specialize (Hob s Hin).
  rewrite Hid, Hw, Hf in Hob. discriminate.
Qed.

Lemma entropy_obligation_sound (et : list esite) :
  entropy_obligation et = true -> forall id, live et id = false.
Proof.
  intros Hob id.
  destruct (live et id) eqn:Hl; [|reflexivity].
  exfalso.
  unfold live in Hl. apply existsb_exists in Hl.
  destruct Hl as [e [Hin He]].
  unfold entropy_obligation in Hob. rewrite forallb_forall in Hob.
  specialize (Hob e Hin).
  destruct (e_flows e), (e_neutral e), (e_id e =? id); simpl in *; discriminate.
Qed.

Lemma survivor_offenders_nil (t : list surv) :
  survivor_offenders t = [] <-> survivor_obligation t = true.
Proof. apply filter_nil_forallb. Qed.

Section Process.
  Variable Val EVal Input Output : Type.
  Variable run : state Val -> entropy EVal -> Input -> Output * state Val.
  Variable t : list surv.
  Variable et : list esite.

  Lemma exec_snoc (st0 : state Val) (h : list (@event Val EVal Input)) ev :
    exec run st0 (h ++ [ev]) = step run (exec run st0 h) ev.
  Proof. unfold exec. rewrite fold_left_app. reflexivity. Qed.

  Lemma out_snoc_run (st0 : state Val) (h : list (@event Val EVal Input)) i e :
    out run st0 (h ++ [Run i e]) = Some (fst (run (fst (exec run st0 h)) e i)).
  Proof.
    unfold out. rewrite exec_snoc. simpl.
    destruct (run (fst (exec run st0 h)) e i) as [o st']. reflexivity.
  Qed.

  Hypothesis Hwrites : writes_only run t.

  (* induction over histories: survivors nobody writes keep their import-time value,
     whatever mixture of complete and crashed runs happened *)
  Lemma unwritten_preserved (st0 : state Val) (h : list (@event Val EVal Input)) :
    Forall (crash_ok t) h ->
    forall id, written t id = false -> fst (exec run st0 h) id = st0 id.
  Proof.
    induction h as [|ev h IH] using rev_ind; intros Hok id Hid; [reflexivity|].
    apply Forall_app in Hok. destruct Hok as [Hh Hev]. inversion Hev as [|x l Hx _]; subst.
    rewrite exec_snoc, <- (IH Hh id Hid).
    destruct ev as [i e|w]; cbn [step].
    - pose proof (Hwrites (fst (exec run st0 h)) e i id Hid) as Hw.
      destruct (run (fst (exec run st0 h)) e i) as [o st']. exact Hw.
    - exact (Hx _ id Hid).
  Qed.

  Hypothesis Hreads : reads_only run t et.
  Hypothesis Hob : survivor_obligation t = true.
  Hypothesis Heob : entropy_obligation et = true.

  Theorem history_independence :
    forall (st0 : state Val) (h1 h2 : list (@event Val EVal Input)) (i : Input) (e1 e2 : entropy EVal),
      Forall (crash_ok t) h1 -> Forall (crash_ok t) h2 ->
      out run st0 (h1 ++ [Run i e1]) = out run st0 (h2 ++ [Run i e2]).
  Proof.
    intros st0 h1 h2 i e1 e2 H1 H2.
    rewrite !out_snoc_run. f_equal.
    apply Hreads.
    - intros id Hf.
      pose proof (survivor_obligation_sound t Hob id Hf) as Hnw.
      rewrite (unwritten_preserved st0 h1 H1 id Hnw).
      rewrite (unwritten_preserved st0 h2 H2 id Hnw). reflexivity.
    - intros id Hl. rewrite (entropy_obligation_sound et Heob id) in Hl. discriminate.
  Qed.

  (* special case: a fresh process (empty history) under any entropy (hash seed)
     gives the bytes of any later repetition *)
  Corollary fresh_process_agrees :
    forall (st0 : state Val) (h : list (@event Val EVal Input)) (i : Input) (e1 e2 : entropy EVal),
      Forall (crash_ok t) h ->
      out run st0 [Run i e1] = out run st0 (h ++ [Run i e2]).
  Proof.
    intros st0 h i e1 e2 Hh.
    exact (history_independence st0 [] h i e1 e2 (Forall_nil _) Hh).
  Qed.

  (* special case: the SAME history and input, run under two environments
     (working directory contents, environment variables, locale, clock - all
     carried by the entropy assignment of the last run AND of every earlier run) *)
  Definition retag (f : entropy EVal -> entropy EVal) (ev : @event Val EVal Input) : @event Val EVal Input :=
    match ev with Run i e => Run i (f e) | Crash w => Crash w end.

  Lemma retag_crash_ok (f : entropy EVal -> entropy EVal) (h : list (@event Val EVal Input)) :
    Forall (crash_ok t) h -> Forall (crash_ok t) (map (retag f) h).
  Proof.
    induction h as [|ev h IH]; intros Hh; simpl; [constructor|].
    inversion Hh as [|x l Hev Hrest]; subst.
    constructor; [destruct ev; simpl; auto | exact (IH Hrest)].
  Qed.

  Corollary environment_independence :
    forall (st0 : state Val) (h : list (@event Val EVal Input)) (i : Input)
           (e1 e2 : entropy EVal) (move : entropy EVal -> entropy EVal),
      Forall (crash_ok t) h ->
      out run st0 (h ++ [Run i e1]) = out run st0 (map (retag move) h ++ [Run i e2]).
  Proof.
    intros st0 h i e1 e2 move Hh.
    exact (history_independence st0 h (map (retag move) h) i e1 e2 Hh (retag_crash_ok move h Hh)).
  Qed.

  (* special case: a run that FAILS after it has already written survivors (a cache
     filled while parsing, a registry half updated: w is arbitrary on the survivors
     some run-time path writes), followed by the retry of a request: the retry gives
     what the request gives alone in a fresh process *)
  Corollary retry_after_crash :
    forall (st0 : state Val) (h : list (@event Val EVal Input)) (w : state Val -> state Val)
           (i : Input) (e1 e2 : entropy EVal),
      Forall (crash_ok t) h -> crash_ok t (@Crash Val EVal Input w) ->
      out run st0 ((h ++ [Crash w]) ++ [Run i e1]) = out run st0 ([] ++ [Run i e2]).
  Proof.
    intros st0 h w i e1 e2 Hh Hw.
    apply history_independence; [|constructor].
    apply Forall_app. split; [exact Hh | constructor; [exact Hw | constructor]].
  Qed.
End Process.

(* The demo systems.  good_run ignores the entropy, so it reads through any site table. *)

Lemma good_reads et : reads_only good_run good_table et.
Proof.
  intros st1 st2 e1 e2 i Hst _. unfold good_run. simpl.
  rewrite (Hst "table" eq_refl). reflexivity.
Qed.

(* assigning to a survivor the table marks written leaves the unwritten ones alone *)
Lemma upd_written t (st : state nat) k v id :
  written t k = true -> written t id = false -> upd st k v id = st id.
Proof.
  intros Hk Hid. unfold upd. destruct (id =? k) eqn:E; [|reflexivity].
  apply String.eqb_eq in E. congruence.
Qed.

Lemma good_writes : writes_only good_run good_table.
Proof. intros st e i id Hid. now apply (upd_written good_table). Qed.

Lemma bad_reads : reads_only bad_run bad_table [].
Proof.
  intros st1 st2 e1 e2 i Hst _. unfold bad_run. simpl.
  rewrite (Hst "cache" eq_refl). reflexivity.
Qed.

Lemma bad_writes : writes_only bad_run bad_table.
Proof. intros st e i id Hid. now apply (upd_written bad_table). Qed.

Lemma order_reads : reads_only order_run [] bad_sites.
Proof.
  intros st1 st2 e1 e2 i _ He. unfold order_run. simpl.
  rewrite (He "for x in s" eq_refl). reflexivity.
Qed.

Lemma order_writes : writes_only order_run [].
Proof. intros st e i id _. reflexivity. Qed.

Definition e0 : entropy nat := fun _ => 0.
Definition e1 : entropy nat := fun _ => 1.
Definition zero_state : state nat := fun _ => 0.

(* crash mid-write, then retry: the failing run left a value in a survivor that the
   retry reads (bad_run answers from its cache when the cache is non-empty) - the
   retry "succeeds" with the leftover although the request alone gives 7 *)
Theorem retry_after_crash_necessary :
  exists (t : list surv) (run : state nat -> entropy nat -> nat -> nat * state nat),
    reads_only run t [] /\ writes_only run t /\ survivor_obligation t = false /\
    exists st0 (w : state nat -> state nat) i e,
      crash_ok t (@Crash nat nat nat w) /\
      out run st0 (([] ++ [Crash w]) ++ [Run i e]) <> out run st0 ([] ++ [Run i e]).
Proof.
  exists bad_table, bad_run.
  split; [exact bad_reads|]. split; [exact bad_writes|]. split; [reflexivity|].
  exists zero_state, (fun st => upd st "cache" 9), 7, e0.
  split.
  - intros st id Hid. now apply (upd_written bad_table).
  - vm_compute. discriminate.
Qed.

(* hence a written AND read survivor makes two histories disagree although the
   system meets both trusted hypotheses: the obligation cannot be dropped *)
Theorem obligation_necessary :
  exists (t : list surv) (run : state nat -> entropy nat -> nat -> nat * state nat),
    reads_only run t [] /\ writes_only run t /\ survivor_obligation t = false /\
    exists st0 (h1 h2 : list (@event nat nat nat)) i e,
      Forall (crash_ok t) h1 /\ Forall (crash_ok t) h2 /\
      out run st0 (h1 ++ [Run i e]) <> out run st0 (h2 ++ [Run i e]).
Proof.
  destruct retry_after_crash_necessary as (t & run & Hr & Hw & Hob & st0 & w & i & e & Hc & Hne).
  exists t, run. split; [exact Hr|]. split; [exact Hw|]. split; [exact Hob|].
  exists st0, ([] ++ [Crash w])%list, [], i, e. repeat constructor; assumption.
Qed.

(* same for an un-neutralised unordered iteration that reaches the output *)
Theorem entropy_obligation_necessary :
  exists (et : list esite) (run : state nat -> entropy nat -> nat -> nat * state nat),
    reads_only run [] et /\ writes_only run [] /\ entropy_obligation et = false /\
    exists st0 i ea eb,
      out run st0 (([] : list (@event nat nat nat)) ++ [Run i ea]) <> out run st0 ([] ++ [Run i eb]).
Proof.
  exists bad_sites, order_run.
  split; [exact order_reads|]. split; [exact order_writes|]. split; [reflexivity|].
  exists zero_state, 0, e0, e1.
  vm_compute. discriminate.
Qed.

Lemma cwd_reads : reads_only cwd_run cwd_table cwd_sites.
Proof.
  intros st1 st2 ea eb i Hst He. unfold cwd_run. simpl.
  rewrite (He "Path('AMBER.DAT').is_file()" eq_refl).
  rewrite (Hst "table" eq_refl). reflexivity.
Qed.

Lemma cwd_writes : writes_only cwd_run cwd_table.
Proof. intros st e i id _. reflexivity. Qed.

Definition cwd_empty : entropy nat := fun _ => 0.
Definition cwd_decoy : entropy nat := fun _ => 42.

(* ... and for an environment site: the same request, the same history (one
   earlier run), the same survivors - only the working directory of the last
   run differs (no same-named file vs a decoy AMBER.DAT whose parameter is 41) *)
Theorem environment_obligation_necessary :
  exists (t : list surv) (et : list esite) (run : state nat -> entropy nat -> nat -> nat * state nat),
    reads_only run t et /\ writes_only run t /\
    survivor_obligation t = true /\ entropy_obligation et = false /\
    Forall (fun e => e_kind e = E_fs_cwd) et /\
    exists st0 (h : list (@event nat nat nat)) i ea eb,
      Forall (crash_ok t) h /\
      out run st0 (h ++ [Run i ea]) <> out run st0 (h ++ [Run i eb]).
Proof.
  exists cwd_table, cwd_sites, cwd_run.
  split; [exact cwd_reads|]. split; [exact cwd_writes|].
  split; [reflexivity|]. split; [reflexivity|].
  split; [repeat constructor|].
  exists (demo_state 10 0), [Run 1 cwd_empty], 3, cwd_empty, cwd_decoy.
  split; [repeat constructor|].
  vm_compute. discriminate.
Qed.

Definition demo_history : list (@event nat nat nat) :=
  [Run 1 e0; Crash (fun st => upd st "counter" 99); Run 2 e1].

Lemma demo_crash_ok : Forall (crash_ok good_table) demo_history.
Proof.
  unfold demo_history. repeat constructor.
  intros st id Hid. now apply (upd_written good_table).
Qed.

(* the hypotheses of history_independence are met by a system whose runs
   really write state (the counter moves, also in a crashed run) and whose
   output really reads state (the table) *)
Lemma nonvacuous :
  survivor_obligation good_table = true /\ entropy_obligation good_sites = true /\
  reads_only good_run good_table good_sites /\ writes_only good_run good_table /\
  Forall (crash_ok good_table) demo_history /\
  fst (exec good_run (demo_state 10 0) demo_history) "counter" = 100 /\
  out good_run (demo_state 10 0) (demo_history ++ [Run 3 e0]) = Some 13 /\
  out good_run (demo_state 10 0) ([] ++ [Run 3 e1]) = Some 13 /\
  out good_run (demo_state 20 0) ([] ++ [Run 3 e1]) = Some 23.
Proof.
  split; [reflexivity|]. split; [reflexivity|].
  split; [exact (good_reads _)|]. split; [exact good_writes|].
  split; [exact demo_crash_ok|].
  repeat split; vm_compute; reflexivity.
Qed.

(* the same system with environment sites present but not flowing (a side file
   written into the cwd, an ASCII data file decoded through the locale): the
   hypotheses still hold and moving the process (the entropy of EVERY run of
   the history replaced by cwd_decoy) does not change the output *)
Lemma nonvacuous_environment :
  entropy_obligation env_good_sites = true /\
  reads_only good_run good_table env_good_sites /\
  (exists e, In e env_good_sites /\ e_kind e = E_fs_cwd) /\
  out good_run (demo_state 10 0) (demo_history ++ [Run 3 e0]) = Some 13 /\
  out good_run (demo_state 10 0) (map (retag nat nat nat (fun _ => cwd_decoy)) demo_history ++ [Run 3 cwd_decoy]) = Some 13.
Proof.
  split; [reflexivity|]. split; [exact (good_reads _)|].
  split; [exists (mk_esite "open(stem + '-input.p', 'wb')" E_fs_cwd false false); split; [simpl; auto | reflexivity]|].
  split; vm_compute; reflexivity.
Qed.
