(* C10 - mmCIF and PDB encodings of one structure give the same result.
   Model in Model/CifLine.v: cif.atom_site AFTER the repairs fix_C10_P1..P6.

   The full statement, forall mv r, mv_ok mv = true -> expressible r = true -> agrees mv r,
   is proved in the stronger form that the line cif.atom_site assembles IS the PDB v3.3
   record of the row, character for character.
   mv_ok: '.' and '?' arrive as one of "", ".", "?", None - the installed
   mmcif_pdbx 2.1.0 and verbatim readers; outside it the statement is false
   (C10_mv_ok_needed).  expressible: the fields fit their PDB columns; the atom and
   residue name are the auth_ item when the row gives one, else the label_ item; a
   name, alt-loc or insertion code that is literally "." or "?" is outside (it cannot
   be told from a missing value once a reader is verbatim).
   Charges and radii are computed by the pipeline after the readers; identical
   records give identical runs (explored by the harness; not a theorem here). *)
From Coq Require Import String List ZArith.
From PV Require Import Lib.Strings Lib.Decimal Model.CifLine Proofs.CifLine.
Import ListNotations.
Local Open Scope string_scope.

(* PDB side: the PDB v3.3 line of every expressible row parses, with pdb.ATOM/HETATM,
   to exactly the atom the row denotes (all 16 fields) *)
Theorem C10_spec_roundtrip : forall r k,
  expressible r = true -> spec_kind r = Some k ->
  exists serial seq,
    py_int (tok_or "" (id r)) = Ok serial /\ py_int (tok_or "" (auth_seq_id r)) = Ok seq /\
    parse_atom k (pdb_line_of_row r) = Ok (fields_of_row k serial seq r).
Proof. exact spec_roundtrip. Qed.

(* the line the mmCIF reader hands to pdb.ATOM/HETATM is the PDB record of the row *)
Theorem C10_cif_line_is_pdb_record : forall mv r k,
  mv_ok mv = true -> expressible r = true -> spec_kind r = Some k ->
  row_line mv r = Ok (Some (k, pdb_line_of_row r)).
Proof. exact cif_line_is_pdb_record. Qed.

(* mmCIF = PDB for every expressible row under every covered convention, all 16 fields
   (kind, serial, name, alt-loc, residue, chain, number, insertion code, x, y, z,
   occupancy, B, segment, element, formal charge) *)
Theorem C10_cif_eq_pdb : forall mv r,
  mv_ok mv = true -> expressible r = true ->
  exists k serial seq,
    spec_kind r = Some k /\
    row_fields mv r = Ok (Some (pdb_line_of_row r, fields_of_row k serial seq r)) /\
    parse_atom k (pdb_line_of_row r) = Ok (fields_of_row k serial seq r).
Proof. exact cif_eq_pdb. Qed.

(* the full statement as written above *)
Theorem C10_cif_eq_pdb_agrees : forall mv r,
  mv_ok mv = true -> expressible r = true -> agrees mv r.
Proof. exact cif_agrees. Qed.

(* in particular for the installed mmcif_pdbx 2.1.0 and for a verbatim reader *)
Theorem C10_cif_eq_pdb_both_conventions : forall r,
  expressible r = true -> agrees mv_installed r /\ agrees mv_legacy r.
Proof. exact cif_eq_pdb_both. Qed.

(* the convention hypothesis cannot be dropped *)
Theorem C10_mv_ok_needed : exists mv r, mv_ok mv = false /\ expressible r = true /\ ~ agrees mv r.
Proof. exact mv_ok_needed. Qed.

(* whole atom_site(block), one model: one record per row, in file order, nothing
   skipped, no exception, no error entry  (guard r = expressible r) *)
Theorem C10_atom_site_single : forall mv rows m,
  mv_ok mv = true -> rows <> [] ->
  (forall r, In r rows -> expressible r = true /\ pdbx_PDB_model_num r = Tok m) ->
  exists recs, atom_site mv rows = mkout recs [] None /\ Forall2 (row_ok mv) rows recs.
Proof. exact atom_site_single_partial. Qed.

(* several models: one block MODEL n / that model's rows in file order / ENDMDL per
   entry of the list [models] that count_models returns, in the order of that list
   (rows_good: every row is expressible and its model number is 1-4 characters
   and an integer).  count_models
   (Model/CifLine.v) collects the distinct model numbers in order of first appearance;
   its result is a hypothesis here, not characterised by a theorem *)
Theorem C10_atom_site_models : forall mv rows models,
  mv_ok mv = true -> rows_good rows ->
  count_models mv rows [] = Ok models -> List.length models <> 1 ->
  exists blocks,
    atom_site mv rows = mkout (concat blocks) [] None /\
    Forall2 (block_ok mv rows) models blocks.
Proof. exact atom_site_models_partial. Qed.

(* cif.read_cif: PROVIDED none of the other category handlers (header, title, compnd, source,
   keywds, expdata, author, ssbond, cispep, cryst1, origxn, scalen, conect) raises, the call
   returns and its coordinate records are exactly atom_site's, whatever those categories hold
   (the harness checks the proviso on the real handlers for every generated file) *)
Theorem C10_read_cif_atoms : forall (O : Type) mv rows (pre post : list (hres O)),
  (forall h, In h (pre ++ post)%list -> exists p, h = Ok p) ->
  o_exn (atom_site mv rows) = None ->
  exists l errs, read_cif mv rows pre post = Ok (l, errs) /\ site_recs l = o_recs (atom_site mv rows).
Proof. exact read_cif_atoms. Qed.

(* the proviso cannot be dropped: one raising handler and the mmCIF route yields nothing *)
Theorem C10_read_cif_handler_raises : forall (O : Type) mv rows (pre post : list (hres O)) e,
  In (Err e) (pre ++ post)%list -> exists e', read_cif mv rows pre post = Err e'.
Proof. exact read_cif_handler_raises. Qed.

(* cif.read_cif as repaired by fix_c10_r4 (the 13 non-coordinate handlers go through
   _optional_records): whatever those handlers do - return, or raise one of the caught
   exceptions - the call returns and its coordinate records are exactly atom_site's *)
Theorem C10_read_cif_guarded_atoms : forall (O : Type) mv rows (pre post : list (string * hres O)),
  o_exn (atom_site mv rows) = None ->
  exists l errs, read_cif_guarded mv rows pre post = Ok (l, errs) /\ site_recs l = o_recs (atom_site mv rows).
Proof. exact read_cif_guarded_atoms. Qed.

(* atom_site stays strict *)
Theorem C10_read_cif_guarded_strict : forall (O : Type) mv rows (pre post : list (string * hres O)) e,
  o_exn (atom_site mv rows) = Some e -> read_cif_guarded mv rows pre post = Err e.
Proof. exact read_cif_guarded_strict. Qed.

(* several data blocks (fix_c10_f25): blocks without an atom_site category - a ligand dictionary
   before or after the coordinates - neither abort read_cif nor change its result *)
Theorem C10_read_cif_blocks_one_site : forall (O : Type) mv (l1 l2 : list (cblock O)) rows pre post,
  (forall b, In b (l1 ++ l2)%list -> fst b = None) ->
  read_cif_blocks mv (l1 ++ (Some rows, (pre, post)) :: l2)%list ([], []) = read_cif_guarded mv rows pre post.
Proof. exact read_cif_blocks_one_site. Qed.

(* FILE LAYER (io.get_molecule): a file whose suffix is .cif in any case goes to the mmCIF reader
   whatever its text is - in particular with every legal opening (comment / blank preamble, the
   CIF 1.1 magic line, DATA_ in any case); the harness ties classify_input to the reader the real
   io.get_molecule calls on every generated file *)
Theorem C10_file_layer_cif_any_text : forall suffix text,
  lower_s suffix = ".cif" -> classify_input suffix text = RCif.
Proof. exact classify_cif_any_text. Qed.

Theorem C10_file_layer_legal_opening : forall suffix text,
  lower_s suffix = ".cif" -> legal_opening text = true -> classify_input suffix text = RCif.
Proof. exact classify_legal_opening. Qed.

(* every other suffix (.mmcif, .ent, none) goes to the PDB reader *)
Theorem C10_file_layer_other_suffix : forall suffix text,
  lower_s suffix <> ".cif" -> classify_input suffix text = RPdb.
Proof. exact classify_other_suffix. Qed.

Example C10_file_layer_nonvacuous :
  lower_s ".CIF" = ".cif" /\ lower_s ".Cif" = ".cif" /\
  legal_opening ("#\#CIF_1.1" ++ nl ++ "# written by a program" ++ nl ++ nl ++ "  DATA_1ABC" ++ nl ++ "#" ++ nl) = true /\
  legal_opening ("data_TEST" ++ nl) = true /\
  legal_opening ("ATOM      1  N   ALA A   1" ++ nl) = false /\
  classify_input ".CIF" ("#\#CIF_1.1" ++ nl ++ "Data_x" ++ nl) = RCif /\
  classify_input ".mmcif" ("data_x" ++ nl) = RPdb /\ classify_input ".pdb" ("data_x" ++ nl) = RPdb.
Proof. exact file_layer_nonvacuous. Qed.

(* non-vacuity and regression: the rows of fixed_witnesses - the inputs of the defect
   classes repaired by fix_C10_P1..P6 and a row without auth names - are expressible
   and agree under both conventions; the formal charge (1+, 2-),
   the author's names (HOH, CA1), the label fallback (CA, LYS) and -100.123 come back *)
Example C10_guard_nonvacuous :
  forallb expressible fixed_witnesses = true /\
  forallb (agreesb mv_installed) fixed_witnesses = true /\
  forallb (agreesb mv_legacy) fixed_witnesses = true /\
  (exists l, row_fields mv_installed w_charge = Ok (Some (l, fields_of_row KATOM 7 12 w_charge))
             /\ f_chg (fields_of_row KATOM 7 12 w_charge) = "1+") /\
  (exists l f, row_fields mv_legacy w_comp = Ok (Some (l, f)) /\ f_resname f = "HOH") /\
  (exists l f, row_fields mv_installed w_atomname = Ok (Some (l, f)) /\ f_name f = "CA1") /\
  (exists l f, row_fields mv_installed w_noauth = Ok (Some (l, f)) /\ f_name f = "CA" /\ f_resname f = "LYS" /\ f_chg f = "2-") /\
  (exists l f, row_fields mv_installed w_wide = Ok (Some (l, f)) /\ f_x f = "-100.123").
Proof. exact guard_nonvacuous. Qed.

Print Assumptions C10_spec_roundtrip.
Print Assumptions C10_cif_line_is_pdb_record.
Print Assumptions C10_cif_eq_pdb.
Print Assumptions C10_cif_eq_pdb_agrees.
Print Assumptions C10_cif_eq_pdb_both_conventions.
Print Assumptions C10_mv_ok_needed.
Print Assumptions C10_atom_site_single.
Print Assumptions C10_atom_site_models.
Print Assumptions C10_read_cif_atoms.
Print Assumptions C10_read_cif_handler_raises.
Print Assumptions C10_read_cif_guarded_atoms.
Print Assumptions C10_read_cif_guarded_strict.
Print Assumptions C10_read_cif_blocks_one_site.
Print Assumptions C10_file_layer_cif_any_text.
Print Assumptions C10_file_layer_legal_opening.
Print Assumptions C10_file_layer_other_suffix.
Print Assumptions C10_file_layer_nonvacuous.
Print Assumptions C10_guard_nonvacuous.
