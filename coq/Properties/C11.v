(* C11 - runs are deterministic and independent of process history.
   Property theorems only; proofs are in Proofs/History.v (generic) and
   Proofs/Survivors.v (generated tables).

   Scope: the theorems are about a DEPENDENCY ABSTRACTION (Model/History.v):
   process state = values of the survivors listed by the AST scan, a run reads
   only survivors marked flows_to_output and entropy sites that are live, and
   writes only survivors marked written (the two hypotheses reads_only /
   writes_only are the trusted meaning of the scan; the write side is checked
   at run time by deep-hash snapshots).  Interpreter-level nondeterminism is
   explored by the harness (hash seeds, A-B-A histories), not proved.

   ENVIRONMENT: the entropy assignment of a run carries, besides set orders,
   ids and the clock, everything the process environment supplies - what a
   lookup relative to the current working directory finds (E_fs_cwd), the
   environment variables / user / time zone (E_env_read), the locale
   (E_locale).  e1 e2 below are arbitrary, so the theorems are statements about
   runs that differ in the working directory, the environment and the locale. *)
From Coq Require Import String List Bool.
From PV Require Import Model.History Proofs.History Generated.Survivors Proofs.Survivors.
Import ListNotations.

(* if every survivor is either never written after import or never read on a
   path to the output, and no entropy site (unordered iteration, clock, id...)
   reaches the output un-neutralised, then for ALL histories h1 h2 (complete
   runs and crashed runs with arbitrary partial writes) and ALL inputs i the
   output of i is the same - also for different hash seeds / addresses (e1 e2) *)
Theorem C11_history_independence :
  forall (Val EVal Input Output : Type)
         (run : state Val -> entropy EVal -> Input -> Output * state Val)
         (t : list surv) (et : list esite),
    writes_only run t ->
    reads_only run t et ->
    survivor_obligation t = true ->
    entropy_obligation et = true ->
    forall (st0 : state Val) (h1 h2 : list (@event Val EVal Input)) (i : Input) (e1 e2 : entropy EVal),
      Forall (crash_ok t) h1 -> Forall (crash_ok t) h2 ->
      out run st0 (h1 ++ [Run i e1]) = out run st0 (h2 ++ [Run i e2]).
Proof. exact history_independence. Qed.

(* the same history of requests replayed in a different environment (every
   run of it, and the final one, under a moved working directory / changed
   variables / another locale: `move` re-tags the entropy of every earlier run)
   gives the same bytes *)
Theorem C11_environment_independence :
  forall (Val EVal Input Output : Type)
         (run : state Val -> entropy EVal -> Input -> Output * state Val)
         (t : list surv) (et : list esite),
    writes_only run t ->
    reads_only run t et ->
    survivor_obligation t = true ->
    entropy_obligation et = true ->
    forall (st0 : state Val) (h : list (@event Val EVal Input)) (i : Input)
           (e1 e2 : entropy EVal) (move : entropy EVal -> entropy EVal),
      Forall (crash_ok t) h ->
      out run st0 (h ++ [Run i e1]) = out run st0 (map (retag Val EVal Input move) h ++ [Run i e2]).
Proof. exact environment_independence. Qed.

(* a run that fails AFTER writing survivors (arbitrary partial writes w to anything
   some run-time path writes: a cache filled while parsing, a half-updated registry),
   followed by a retry: the retry gives what the request gives alone in a fresh process *)
Theorem C11_retry_after_crash :
  forall (Val EVal Input Output : Type)
         (run : state Val -> entropy EVal -> Input -> Output * state Val)
         (t : list surv) (et : list esite),
    writes_only run t ->
    reads_only run t et ->
    survivor_obligation t = true ->
    entropy_obligation et = true ->
    forall (st0 : state Val) (h : list (@event Val EVal Input)) (w : state Val -> state Val)
           (i : Input) (e1 e2 : entropy EVal),
      Forall (crash_ok t) h -> crash_ok t (@Crash Val EVal Input w) ->
      out run st0 ((h ++ [Crash w]) ++ [Run i e1]) = out run st0 ([] ++ [Run i e2]).
Proof. exact retry_after_crash. Qed.

(* ... and not without the obligation: a survivor written before the failure point
   and read by the retry makes the retry differ from the fresh process *)
Theorem C11_retry_after_crash_necessary :
  exists (t : list surv) (run : state nat -> entropy nat -> nat -> nat * state nat),
    reads_only run t [] /\ writes_only run t /\ survivor_obligation t = false /\
    exists st0 (w : state nat -> state nat) i e,
      crash_ok t (@Crash nat nat nat w) /\
      out run st0 (([] ++ [Crash w]) ++ [Run i e]) <> out run st0 ([] ++ [Run i e]).
Proof. exact retry_after_crash_necessary. Qed.

(* the survivors table generated from the current tree meets the obligation *)
Theorem C11_generated_obligation : survivor_obligation survivors = true.
Proof. exact generated_obligation. Qed.

(* every row of the generated table of set iterations / entropy sources either
   does not reach the output or is neutralised (sorted() / a set-valued consumer) *)
Theorem C11_no_unordered_iteration : entropy_obligation entropy_sites = true.
Proof. exact generated_entropy_obligation. Qed.

(* both together: history independence of the current tree modulo the scan *)
Theorem C11_generated_history_independence :
  forall (Val EVal Input Output : Type)
         (run : state Val -> entropy EVal -> Input -> Output * state Val),
    reads_only run survivors entropy_sites ->
    writes_only run survivors ->
    forall (st0 : state Val) (h1 h2 : list (@event Val EVal Input)) (i : Input) (e1 e2 : entropy EVal),
      Forall (crash_ok survivors) h1 -> Forall (crash_ok survivors) h2 ->
      out run st0 (h1 ++ [Run i e1]) = out run st0 (h2 ++ [Run i e2]).
Proof. exact generated_history_independence. Qed.

(* the obligation is not decorative: a system meeting both trusted hypotheses
   but with one written-and-read survivor has two histories that disagree *)
Theorem C11_obligation_necessary :
  exists (t : list surv) (run : state nat -> entropy nat -> nat -> nat * state nat),
    reads_only run t [] /\ writes_only run t /\ survivor_obligation t = false /\
    exists st0 (h1 h2 : list (@event nat nat nat)) i e,
      Forall (crash_ok t) h1 /\ Forall (crash_ok t) h2 /\
      out run st0 (h1 ++ [Run i e]) <> out run st0 (h2 ++ [Run i e]).
Proof. exact obligation_necessary. Qed.

Theorem C11_entropy_obligation_necessary :
  exists (et : list esite) (run : state nat -> entropy nat -> nat -> nat * state nat),
    reads_only run [] et /\ writes_only run [] /\ entropy_obligation et = false /\
    exists st0 i ea eb,
      out run st0 (([] : list (@event nat nat nat)) ++ [Run i ea]) <> out run st0 ([] ++ [Run i eb]).
Proof. exact entropy_obligation_necessary. Qed.

(* and for the environment: a system with NO written-and-read survivor, whose
   only offending site is a data-file lookup relative to the working directory
   (kind E_fs_cwd), gives different outputs for the same request after the same
   history when a same-named file sits in the directory *)
Theorem C11_environment_obligation_necessary :
  exists (t : list surv) (et : list esite) (run : state nat -> entropy nat -> nat -> nat * state nat),
    reads_only run t et /\ writes_only run t /\
    survivor_obligation t = true /\ entropy_obligation et = false /\
    Forall (fun e => e_kind e = E_fs_cwd) et /\
    exists st0 (h : list (@event nat nat nat)) i ea eb,
      Forall (crash_ok t) h /\
      out run st0 (h ++ [Run i ea]) <> out run st0 (h ++ [Run i eb]).
Proof. exact environment_obligation_necessary. Qed.

(* non-vacuity: a two-survivor system (a table that is read, a counter that is
   written - also by a crashed run) meets every hypothesis, its state really
   changes, its output really depends on the state, and the outputs agree *)
Example C11_nonvacuous :
  survivor_obligation good_table = true /\ entropy_obligation good_sites = true /\
  reads_only good_run good_table good_sites /\ writes_only good_run good_table /\
  Forall (crash_ok good_table) demo_history /\
  fst (exec good_run (demo_state 10 0) demo_history) "counter"%string = 100 /\
  out good_run (demo_state 10 0) (demo_history ++ [Run 3 e0]) = Some 13 /\
  out good_run (demo_state 10 0) ([] ++ [Run 3 e1]) = Some 13 /\
  out good_run (demo_state 20 0) ([] ++ [Run 3 e1]) = Some 23.
Proof. exact nonvacuous. Qed.

(* non-vacuity with environment sites present: a side file written into the
   cwd and a locale-decoded ASCII data file are listed, do not flow, and the
   whole history replayed "elsewhere" ends in the same output *)
Example C11_nonvacuous_environment :
  entropy_obligation env_good_sites = true /\
  reads_only good_run good_table env_good_sites /\
  (exists e, In e env_good_sites /\ e_kind e = E_fs_cwd) /\
  out good_run (demo_state 10 0) (demo_history ++ [Run 3 e0]) = Some 13 /\
  out good_run (demo_state 10 0) (map (retag nat nat nat (fun _ => cwd_decoy)) demo_history ++ [Run 3 cwd_decoy]) = Some 13.
Proof. exact nonvacuous_environment. Qed.

Print Assumptions C11_history_independence.
Print Assumptions C11_environment_independence.
Print Assumptions C11_retry_after_crash.
Print Assumptions C11_retry_after_crash_necessary.
Print Assumptions C11_environment_obligation_necessary.
Print Assumptions C11_nonvacuous_environment.
Print Assumptions C11_generated_obligation.
Print Assumptions C11_no_unordered_iteration.
Print Assumptions C11_generated_history_independence.
Print Assumptions C11_obligation_necessary.
Print Assumptions C11_entropy_obligation_necessary.
Print Assumptions C11_nonvacuous.
