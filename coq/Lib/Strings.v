(* Python-string primitives used by several models (whitespace split, join, slices,
   padding, strip), with the lemmas the proofs use about them. *)
From Coq Require Import String Ascii List Arith NArith ZArith Lia Bool.
Import ListNotations.
Local Open Scope string_scope.

(* str.split() / str.strip() whitespace restricted to ASCII:
   \t \n \v \f \r, \x1c-\x1f, space *)
Definition is_ws (c : ascii) : bool :=
  let n := N_of_ascii c in
  ((9 <=? n) && (n <=? 13))%N || ((28 <=? n) && (n <=? 32))%N.

Definition bs (l : list N) : string :=
  fold_right (fun n s => String (ascii_of_N n) s) EmptyString l.

Definition nl : string := String (ascii_of_N 10) EmptyString.
Definition sp : ascii := " "%char.

Definition is_empty (s : string) : bool :=
  match s with EmptyString => true | _ => false end.

Fixpoint all_chars (p : ascii -> bool) (s : string) : bool :=
  match s with EmptyString => true | String c r => p c && all_chars p r end.

Fixpoint any_char (p : ascii -> bool) (s : string) : bool :=
  match s with EmptyString => false | String c r => p c || any_char p r end.

Definition cons_ne (h : string) (t : list string) : list string :=
  if is_empty h then t else h :: t.

(* (leading non-blank prefix, remaining tokens) *)
Fixpoint toks (s : string) : string * list string :=
  match s with
  | EmptyString => (EmptyString, [])
  | String c r =>
      let (h, t) := toks r in
      if is_ws c then (EmptyString, cons_ne h t) else (String c h, t)
  end.

(* Python: s.split() *)
Definition tokens (s : string) : list string :=
  let (h, t) := toks s in cons_ne h t.

Lemma cons_ne_app h t u : (cons_ne h t ++ u = cons_ne h (t ++ u))%list.
Proof. unfold cons_ne; destruct (is_empty h); reflexivity. Qed.

Lemma toks_app_ws a w b :
  is_ws w = true ->
  toks (a ++ String w b) = (fst (toks a), (snd (toks a) ++ tokens b)%list).
Proof.
  intros Hw. induction a as [|c a IH]; simpl.
  - rewrite Hw. unfold tokens. destruct (toks b) as [h t]. reflexivity.
  - rewrite IH. destruct (toks a) as [h t]; simpl.
    destruct (is_ws c); simpl; [rewrite cons_ne_app|]; reflexivity.
Qed.

Theorem tokens_app_ws a w b :
  is_ws w = true -> tokens (a ++ String w b) = (tokens a ++ tokens b)%list.
Proof.
  intros Hw. unfold tokens at 1 2. rewrite (toks_app_ws _ _ _ Hw).
  destruct (toks a) as [h t]; simpl. symmetry; apply cons_ne_app.
Qed.

Lemma tokens_empty : tokens "" = [].
Proof. reflexivity. Qed.

Lemma tokens_ws_prefix w b : is_ws w = true -> tokens (String w b) = tokens b.
Proof. intros H. apply (tokens_app_ws "" w b H). Qed.

Lemma app_empty_r (s : string) : s ++ "" = s.
Proof. induction s; simpl; congruence. Qed.

Lemma app_assoc_s (a b c : string) : (a ++ b) ++ c = a ++ (b ++ c).
Proof. induction a; simpl; congruence. Qed.

Lemma tokens_ws_suffix a w : is_ws w = true -> tokens (a ++ String w "") = tokens a.
Proof. intros H. rewrite (tokens_app_ws _ _ _ H). simpl. apply app_nil_r. Qed.

Lemma toks_noblank_app t s :
  any_char is_ws t = false -> toks (t ++ s) = (t ++ fst (toks s), snd (toks s)).
Proof.
  induction t as [|c t IH]; cbn [any_char append toks]; intros H.
  - destruct (toks s); reflexivity.
  - apply orb_false_iff in H as [Hc Ht]. rewrite (IH Ht), Hc. reflexivity.
Qed.

Lemma toks_noblank s : any_char is_ws s = false -> toks s = (s, []).
Proof.
  intros H. rewrite <- (app_empty_r s) at 1. rewrite (toks_noblank_app _ "" H).
  simpl. now rewrite app_empty_r.
Qed.

Lemma tokens_single s :
  any_char is_ws s = false -> is_empty s = false -> tokens s = [s].
Proof.
  intros H1 H2. unfold tokens. rewrite (toks_noblank _ H1). unfold cons_ne.
  rewrite H2. reflexivity.
Qed.

Fixpoint join (sep : string) (l : list string) : string :=
  match l with
  | [] => ""
  | [x] => x
  | x :: r => x ++ sep ++ join sep r
  end.

Lemma tokens_join_sp (l : list string) :
  tokens (join " " l) = concat (map tokens l).
Proof.
  induction l as [|x [|y r] IH].
  - reflexivity.
  - simpl. rewrite app_nil_r. reflexivity.
  - change (join " " (x :: y :: r)) with (x ++ String sp (join " " (y :: r))).
    rewrite tokens_app_ws by reflexivity. rewrite IH. reflexivity.
Qed.

Fixpoint take (n : nat) (s : string) : string :=
  match n, s with
  | S k, String c r => String c (take k r)
  | _, _ => ""
  end.

Fixpoint drop (n : nat) (s : string) : string :=
  match n, s with
  | S k, String _ r => drop k r
  | _, _ => s
  end.

(* s[a:b] for 0 <= a <= b *)
Definition slice (a b : nat) (s : string) : string := take (b - a) (drop a s).

Fixpoint repeat_char (c : ascii) (n : nat) : string :=
  match n with 0 => "" | S k => String c (repeat_char c k) end.

(* str.ljust(w) / str.rjust(w) with blanks *)
Definition ljust (w : nat) (s : string) : string := s ++ repeat_char sp (w - String.length s).
Definition rjust (w : nat) (s : string) : string := repeat_char sp (w - String.length s) ++ s.

Lemma length_app (a b : string) : String.length (a ++ b) = String.length a + String.length b.
Proof. induction a; simpl; lia. Qed.

Lemma length_repeat c n : String.length (repeat_char c n) = n.
Proof. induction n; simpl; lia. Qed.

Lemma length_take n s : String.length (take n s) = Nat.min n (String.length s).
Proof. revert s; induction n; intros [|c r]; simpl; auto. Qed.

Lemma length_drop n s : String.length (drop n s) = String.length s - n.
Proof. revert s; induction n; intros [|c r]; simpl; auto. Qed.

Lemma take_app_exact (a b : string) : take (String.length a) (a ++ b) = a.
Proof. induction a; simpl; [destruct b; reflexivity | congruence]. Qed.

Lemma drop_app_exact (a b : string) : drop (String.length a) (a ++ b) = b.
Proof. induction a; simpl; auto. Qed.

Lemma take_drop (n : nat) (s : string) : take n s ++ drop n s = s.
Proof. revert s; induction n; intros [|c r]; simpl; try reflexivity. now rewrite IHn. Qed.

Lemma length_ljust w s : String.length (ljust w s) = Nat.max w (String.length s).
Proof. unfold ljust. rewrite length_app, length_repeat. lia. Qed.

Lemma length_rjust w s : String.length (rjust w s) = Nat.max w (String.length s).
Proof. unfold rjust. rewrite length_app, length_repeat. lia. Qed.

(* str.lstrip() / str.rstrip() / str.strip() without argument *)
Fixpoint lstrip (s : string) : string :=
  match s with
  | String c r => if is_ws c then lstrip r else s
  | EmptyString => s
  end.

Fixpoint rstrip (s : string) : string :=
  match s with
  | EmptyString => EmptyString
  | String c r =>
      let r' := rstrip r in
      if is_ws c && is_empty r' then EmptyString else String c r'
  end.

Definition strip (s : string) : string := rstrip (lstrip s).

Definition seqb := String.eqb.

Fixpoint mem_str (x : string) (l : list string) : bool :=
  match l with [] => false | y :: r => String.eqb x y || mem_str x r end.

(* s.startswith(p) *)
Fixpoint prefix_of (p s : string) : bool :=
  match p, s with
  | EmptyString, _ => true
  | String a p', String b s' => Ascii.eqb a b && prefix_of p' s'
  | _, _ => false
  end.

Lemma take_nil n : take n "" = "".
Proof. destruct n; reflexivity. Qed.

Lemma drop_nil n : drop n "" = "".
Proof. destruct n; reflexivity. Qed.

Lemma take_all n s : String.length s <= n -> take n s = s.
Proof.
  revert s; induction n as [|n IH]; intros [|c r] H; simpl in *; try reflexivity; try lia.
  rewrite IH by lia. reflexivity.
Qed.

Lemma drop_all n s : String.length s <= n -> drop n s = "".
Proof.
  revert s; induction n as [|n IH]; intros [|c r] H; simpl in *; try reflexivity; try lia.
  apply IH. lia.
Qed.

Lemma take_app n : forall a b, take n (a ++ b) = take n a ++ take (n - String.length a) b.
Proof.
  induction n as [|n IH]; intros [|c a] b; try reflexivity.
  cbn [take append String.length Nat.sub]. now rewrite IH.
Qed.

Lemma drop_app n : forall a b, drop n (a ++ b) = drop n a ++ drop (n - String.length a) b.
Proof. induction n as [|n IH]; intros [|c a] b; try reflexivity. apply IH. Qed.

Lemma drop_drop n : forall m s, drop n (drop m s) = drop (m + n) s.
Proof.
  induction m as [|m IH]; intros s; [reflexivity|].
  destruct s as [|c s]; cbn [drop Nat.add]; [now destruct n | apply IH].
Qed.

Lemma drop_app_add (a b : string) n : drop (String.length a + n) (a ++ b) = drop n b.
Proof. induction a as [|c a IH]; [reflexivity|exact IH]. Qed.

Lemma slice_app_add (a b : string) i j :
  slice (String.length a + i) (String.length a + j) (a ++ b) = slice i j b.
Proof. unfold slice. rewrite drop_app_add. f_equal. lia. Qed.

Lemma slice1_get n s :
  slice n (S n) s = match String.get n s with Some c => String c "" | None => "" end.
Proof.
  unfold slice. replace (S n - n) with 1 by lia.
  revert s; induction n as [|n IH]; intros [|c s]; simpl; try reflexivity.
  apply IH.
Qed.

Lemma slice_take_min a b n s : slice a b (take n s) = slice a (Nat.min b n) s.
Proof.
  unfold slice. revert a b s; induction n as [|n IH]; intros a b s.
  - rewrite Nat.min_0_r. simpl. rewrite drop_nil, take_nil. destruct (drop a s); reflexivity.
  - destruct s as [|c s]; [simpl; rewrite !drop_nil, !take_nil; reflexivity|].
    destruct a as [|a]; simpl.
    + destruct b as [|b]; simpl; [reflexivity|]. f_equal.
      specialize (IH 0 b s). simpl in IH. rewrite !Nat.sub_0_r in IH. exact IH.
    + destruct b as [|b]; [simpl; destruct (drop a (take n s)), (drop a s); reflexivity|].
      apply (IH a b s).
Qed.

Lemma slice_take a b n s : b <= n -> slice a b (take n s) = slice a b s.
Proof. intros H. rewrite slice_take_min, Nat.min_l by exact H. reflexivity. Qed.

Lemma get_take i n s : i < n -> String.get i (take n s) = String.get i s.
Proof.
  revert i s; induction n as [|n IH]; intros i s Hi; [lia|].
  destruct s as [|c s]; [reflexivity|]. destruct i as [|i]; simpl; [reflexivity|].
  apply IH. lia.
Qed.

Lemma get_none_len s : forall n, String.get n s = None -> String.length s <= n.
Proof.
  induction s as [|c s IH]; intros n H; simpl; [lia|].
  destruct n; simpl in H; [discriminate|]. specialize (IH n H). lia.
Qed.

Lemma get_some_len s : forall n c, String.get n s = Some c -> n < String.length s.
Proof.
  induction s as [|c s IH]; intros n d H; simpl in *; [discriminate|].
  destruct n; [lia|]. specialize (IH n d H). lia.
Qed.

Lemma get_app_skip (a b : string) (k n : nat) :
  String.length a = k -> String.get (k + n) (a ++ b) = String.get n b.
Proof.
  intros <-. induction a as [|c a IH]; [reflexivity|].
  cbn [String.length Nat.add append String.get]. exact IH.
Qed.

Lemma get_app_l (a b : string) (n : nat) :
  n < String.length a -> String.get n (a ++ b) = String.get n a.
Proof.
  revert n; induction a as [|c a IH]; intros n H; cbn [String.length] in H; [lia|].
  destruct n; cbn [append String.get]; [reflexivity | apply IH; lia].
Qed.

Lemma prefix_of_app (p s r : string) :
  String.length p <= String.length s -> prefix_of p (s ++ r) = prefix_of p s.
Proof.
  revert s; induction p as [|a p IH]; intros s Hl; [reflexivity|].
  destruct s as [|b s]; cbn [String.length] in Hl; [lia|].
  cbn [append prefix_of]. rewrite IH by lia. reflexivity.
Qed.

Lemma repeat_char_snoc c n s : repeat_char c n ++ String c s = repeat_char c (S n) ++ s.
Proof. induction n; cbn [repeat_char append]; [reflexivity | now rewrite IHn]. Qed.

Lemma length_pad n t : String.length (repeat_char sp n ++ t) = n + String.length t.
Proof. now rewrite length_app, length_repeat. Qed.

Lemma ljust_long n s : n <= String.length s -> ljust n s = s.
Proof.
  intros H. unfold ljust. replace (n - String.length s) with 0 by lia. apply app_empty_r.
Qed.

Lemma rjust_long n s : n <= String.length s -> rjust n s = s.
Proof. intros H. unfold rjust. now replace (n - String.length s) with 0 by lia. Qed.

Lemma length_take_ljust n s : String.length (take n (ljust n s)) = n.
Proof. rewrite length_take, length_ljust. lia. Qed.

Lemma length_take_rjust n s : String.length (take n (rjust n s)) = n.
Proof. rewrite length_take, length_rjust. lia. Qed.

Lemma take_rjust_fit n s :
  String.length s <= n -> take n (rjust n s) = repeat_char sp (n - String.length s) ++ s.
Proof.
  intros H. apply take_all. unfold rjust. rewrite length_app, length_repeat. lia.
Qed.

Lemma take_ljust_fit n s :
  String.length s <= n -> take n (ljust n s) = s ++ repeat_char sp (n - String.length s).
Proof.
  intros H. apply take_all. unfold ljust. rewrite length_app, length_repeat. lia.
Qed.

Lemma is_empty_true s : is_empty s = true -> s = "".
Proof. destruct s; simpl; congruence. Qed.

Lemma is_empty_app_r a b : is_empty b = false -> is_empty (a ++ b) = false.
Proof. destruct a; cbn; [trivial | reflexivity]. Qed.

Lemma is_empty_app_l a b : is_empty a = false -> is_empty (a ++ b) = false.
Proof. destruct a; cbn; [discriminate | reflexivity]. Qed.

Lemma any_char_app p a b : any_char p (a ++ b) = any_char p a || any_char p b.
Proof. induction a as [|c a IH]; simpl; [reflexivity|]. rewrite IH. now rewrite orb_assoc. Qed.

Lemma all_chars_app p a b : all_chars p (a ++ b) = all_chars p a && all_chars p b.
Proof. induction a as [|c a IH]; simpl; [reflexivity|]. rewrite IH. now rewrite andb_assoc. Qed.

Lemma all_chars_repeat p c n : p c = true -> all_chars p (repeat_char c n) = true.
Proof. intros H. induction n; simpl; [reflexivity|]. now rewrite H, IHn. Qed.

Lemma all_chars_take p n s : all_chars p s = true -> all_chars p (take n s) = true.
Proof.
  revert s; induction n as [|n IH]; intros [|c r] H; simpl in *; try reflexivity.
  apply andb_true_iff in H as [H1 H2]. now rewrite H1, IH.
Qed.

Lemma all_chars_drop p n s : all_chars p s = true -> all_chars p (drop n s) = true.
Proof.
  revert s; induction n as [|n IH]; intros [|c r] H; simpl in *; try reflexivity; try assumption.
  apply andb_true_iff in H as [H1 H2]. now apply IH.
Qed.

Lemma all_not_any p q s :
  (forall c, p c = true -> q c = false) -> all_chars p s = true -> any_char q s = false.
Proof.
  intros Hpq. induction s as [|c r IH]; simpl; intros H; [reflexivity|].
  apply andb_true_iff in H as [H1 H2]. now rewrite (Hpq _ H1), IH.
Qed.

Lemma lstrip_blanks k t : lstrip (repeat_char sp k ++ t) = lstrip t.
Proof. induction k; simpl; auto. Qed.

Lemma lstrip_app s w :
  lstrip (s ++ w) = if is_empty (lstrip s) then lstrip w else lstrip s ++ w.
Proof.
  induction s as [|c s IH]; simpl; [reflexivity|].
  destruct (is_ws c); [exact IH | reflexivity].
Qed.

Lemma lstrip_noblank_head s t : any_char is_ws s = false -> is_empty s = false ->
  lstrip (s ++ t) = s ++ t.
Proof.
  destruct s as [|c r]; simpl; intros H E; [discriminate|].
  apply orb_false_iff in H as [Hc _]. now rewrite Hc.
Qed.

Lemma rstrip_blanks j : rstrip (repeat_char sp j) = "".
Proof. induction j; simpl; [reflexivity|]. rewrite IHj. reflexivity. Qed.

Lemma rstrip_noblank s j : any_char is_ws s = false -> rstrip (s ++ repeat_char sp j) = s.
Proof.
  induction s as [|c r IH]; simpl; intros H.
  - apply rstrip_blanks.
  - apply orb_false_iff in H as [Hc Hr]. rewrite (IH Hr), Hc. reflexivity.
Qed.

Lemma rstrip_app_gen a b : rstrip b = b -> is_empty b = false -> rstrip (a ++ b) = a ++ b.
Proof.
  intros Hb Hne. induction a as [|c a IH]; cbn [append rstrip]; [exact Hb|].
  rewrite IH, (is_empty_app_r a b Hne), andb_false_r. reflexivity.
Qed.

Theorem strip_padded k s j :
  any_char is_ws s = false -> strip (repeat_char sp k ++ s ++ repeat_char sp j) = s.
Proof.
  intros H. unfold strip. rewrite lstrip_blanks.
  destruct (is_empty s) eqn:E.
  - apply is_empty_true in E. subst s. simpl.
    rewrite <- (app_empty_r (repeat_char sp j)), lstrip_blanks. reflexivity.
  - rewrite (lstrip_noblank_head _ _ H E). now apply rstrip_noblank.
Qed.

Lemma tokens_blanks k t : tokens (repeat_char sp k ++ t) = tokens t.
Proof. induction k; simpl repeat_char; simpl append; [reflexivity|]. now rewrite tokens_ws_prefix. Qed.

Lemma tokens_all_ws s : all_chars is_ws s = true -> tokens s = [].
Proof.
  induction s as [|c s IH]; [reflexivity|]. cbn [all_chars]. intros H.
  apply andb_true_iff in H as [Hc Hs]. rewrite (tokens_ws_prefix _ _ Hc). auto.
Qed.

Lemma tokens_toks s : tokens s = cons_ne (fst (toks s)) (snd (toks s)).
Proof. unfold tokens. destruct (toks s); reflexivity. Qed.

Lemma mem_str_app x l1 l2 : mem_str x (l1 ++ l2)%list = mem_str x l1 || mem_str x l2.
Proof. induction l1 as [|y l1 IH]; simpl; [reflexivity|]. rewrite IH. apply orb_assoc. Qed.

Lemma concat_cons_s x l : String.concat "" (x :: l) = x ++ String.concat "" l.
Proof. destruct l; simpl; [now rewrite app_empty_r | reflexivity]. Qed.

Lemma concat_app_s a b :
  String.concat "" (a ++ b)%list = String.concat "" a ++ String.concat "" b.
Proof.
  induction a as [|x a IH]; [reflexivity|].
  change ((x :: a) ++ b)%list with (x :: (a ++ b)%list). rewrite !concat_cons_s, IH.
  now rewrite app_assoc_s.
Qed.

Lemma concat_nonempty xs :
  String.concat "" (filter (fun s => negb (is_empty s)) xs) = String.concat "" xs.
Proof.
  induction xs as [|x r IH]; [reflexivity|]. rewrite (concat_cons_s x r).
  destruct x; cbn [filter is_empty negb]; [exact IH|]. now rewrite concat_cons_s, IH.
Qed.

(* A line of fixed-width columns is [cat l] for a list l of (width, content)
   pairs; take / drop / slice of the line are computed on the list, a cut
   inside a column splitting it. *)
Fixpoint cat (l : list (nat * string)) : string :=
  match l with [] => "" | (_, f) :: r => f ++ cat r end.

Fixpoint fit (n : nat) (l : list (nat * string)) : Prop :=
  match n, l with
  | S _, (w, f) :: r => String.length f = w /\ fit (n - w) r
  | _, _ => True
  end.

Definition fitted (l : list (nat * string)) : Prop :=
  Forall (fun p => String.length (snd p) = fst p) l.

Fixpoint take_cols (n : nat) (l : list (nat * string)) : string :=
  match n, l with
  | S _, (w, f) :: r =>
      match Nat.compare n w with
      | Lt => take n f
      | Eq => f
      | Gt => f ++ take_cols (n - w) r
      end
  | _, _ => ""
  end.

Fixpoint drop_cols (n : nat) (l : list (nat * string)) : list (nat * string) :=
  match n, l with
  | S _, (w, f) :: r =>
      match Nat.compare n w with
      | Lt => (w - n, drop n f) :: r
      | Eq => r
      | Gt => drop_cols (n - w) r
      end
  | _, _ => l
  end.

Lemma cat_app l m : cat (l ++ m) = cat l ++ cat m.
Proof. induction l as [|[w f] r IH]; cbn; [reflexivity|]. now rewrite IH, app_assoc_s. Qed.

Lemma take_cat l : forall n, fit n l -> take n (cat l) = take_cols n l.
Proof.
  induction l as [|[w f] r IH]; intros [|n] H; try reflexivity.
  destruct H as [<- H]. cbn [cat take_cols]. rewrite take_app.
  destruct (Nat.compare_spec (S n) (String.length f)) as [E|E|E].
  - rewrite E, Nat.sub_diag, take_all by lia. apply app_empty_r.
  - replace (S n - String.length f) with 0 by lia. apply app_empty_r.
  - rewrite take_all, IH by (assumption || lia). reflexivity.
Qed.

Lemma drop_cat l : forall n, fit n l -> drop n (cat l) = cat (drop_cols n l).
Proof.
  induction l as [|[w f] r IH]; intros [|n] H; try reflexivity.
  destruct H as [<- H]. cbn [cat drop_cols]. rewrite drop_app.
  destruct (Nat.compare_spec (S n) (String.length f)) as [E|E|E].
  - rewrite E, Nat.sub_diag, drop_all by lia. reflexivity.
  - replace (S n - String.length f) with 0 by lia. reflexivity.
  - rewrite drop_all, IH by (assumption || lia). reflexivity.
Qed.

Lemma fit_le l : forall m n, m <= n -> fit n l -> fit m l.
Proof.
  induction l as [|[w f] r IH]; intros [|m] [|n] L H; try exact I; [lia|].
  destruct H as [E H]. split; [exact E|]. apply (IH _ (S n - w)); [lia | exact H].
Qed.

Lemma fitted_fit l : fitted l -> forall n, fit n l.
Proof.
  induction 1 as [|[w f] r E _ IH]; intros [|n]; try exact I. split; [exact E | apply IH].
Qed.

Lemma fitted_drop l : fitted l -> forall n, fitted (drop_cols n l).
Proof.
  induction 1 as [|[w f] r E H IH]; intros [|n]; try (now constructor). cbn [drop_cols].
  destruct (Nat.compare_spec (S n) w); [exact H | | apply IH].
  constructor; [|exact H]. cbn [fst snd] in *. rewrite length_drop. lia.
Qed.

Lemma slice_cat a b l : fitted l -> slice a b (cat l) = take_cols (b - a) (drop_cols a l).
Proof.
  intros H. unfold slice. rewrite drop_cat by now apply fitted_fit.
  now apply take_cat, fitted_fit, fitted_drop.
Qed.
