(* C07, string level: strip/slice under trailing blanks and cuts, what one line
   does (column parser, fallback, record name), and what read_pdb returns. *)
From Coq Require Import String Ascii List Arith NArith ZArith Bool Lia.
From PV Require Import Lib.Strings Lib.Decimal Model.PdbRead Model.Group Model.PdbSpec.
Import ListNotations.
Local Open Scope string_scope.

Definition all_ws (s : string) : Prop := all_chars is_ws s = true.

Lemma all_ws_nil : all_ws "". Proof. reflexivity. Qed.

Lemma all_ws_cons c s : all_ws (String c s) <-> is_ws c = true /\ all_ws s.
Proof. unfold all_ws; simpl. apply andb_true_iff. Qed.

Lemma all_ws_app a b : all_ws a -> all_ws b -> all_ws (a ++ b).
Proof. unfold all_ws. rewrite all_chars_app. intros -> ->. reflexivity. Qed.

Lemma lstrip_all_ws s : all_ws s -> lstrip s = "".
Proof.
  induction s as [|c s IH]; simpl; intros H; [reflexivity|].
  apply all_ws_cons in H as [Hc Hs]. rewrite Hc. auto.
Qed.

Lemma rstrip_all_ws s : all_ws s -> rstrip s = "".
Proof.
  induction s as [|c s IH]; simpl; intros H; [reflexivity|].
  apply all_ws_cons in H as [Hc Hs]. rewrite (IH Hs), Hc. reflexivity.
Qed.

Lemma strip_all_ws s : all_ws s -> strip s = "".
Proof. intros H. unfold strip. rewrite (lstrip_all_ws _ H). reflexivity. Qed.

Lemma rstrip_app_ws s w : all_ws w -> rstrip (s ++ w) = rstrip s.
Proof.
  intros Hw. induction s as [|c s IH]; simpl.
  - apply rstrip_all_ws; exact Hw.
  - rewrite IH. reflexivity.
Qed.

Theorem strip_app_ws s w : all_ws w -> strip (s ++ w) = strip s.
Proof.
  intros Hw. unfold strip. rewrite lstrip_app.
  destruct (lstrip s) as [|c r] eqn:E; cbn [is_empty].
  - rewrite (lstrip_all_ws _ Hw). reflexivity.
  - apply rstrip_app_ws; exact Hw.
Qed.

Lemma rstrip_decomp s : exists w, all_ws w /\ s = rstrip s ++ w.
Proof.
  induction s as [|c s [w [Hw E]]]; simpl.
  - exists "". split; reflexivity.
  - destruct (is_ws c && is_empty (rstrip s)) eqn:B.
    + apply andb_true_iff in B as [Hc He]. exists (String c s). split; [|reflexivity].
      apply all_ws_cons. split; [exact Hc|].
      destruct (rstrip s); [|discriminate]. simpl in E. rewrite E. exact Hw.
    + exists w. split; [exact Hw|]. simpl. rewrite <- E. reflexivity.
Qed.

(* a line without leading blanks is its stripped form plus trailing blanks *)
Lemma strip_decomp raw : lstrip raw = raw -> exists w, all_ws w /\ raw = strip raw ++ w.
Proof.
  intros H. unfold strip. rewrite H. apply rstrip_decomp.
Qed.

Lemma all_ws_take n w : all_ws w -> all_ws (take n w).
Proof. apply all_chars_take. Qed.

Lemma all_ws_drop n w : all_ws w -> all_ws (drop n w).
Proof. apply all_chars_drop. Qed.

Lemma take_app_ws k r w : all_ws w -> exists w', all_ws w' /\ take k (r ++ w) = take k r ++ w'.
Proof.
  intros Hw. revert k; induction r as [|c r IH]; intros k.
  - exists (take k w). split; [apply all_ws_take; exact Hw|]. rewrite take_nil. reflexivity.
  - destruct k as [|k]; simpl.
    + exists "". split; reflexivity.
    + destruct (IH k) as [w' [Hw' E]]. exists w'. split; [exact Hw'|]. rewrite E. reflexivity.
Qed.

Lemma strip_take_drop_app_ws s a k w :
  all_ws w -> strip (take k (drop a (s ++ w))) = strip (take k (drop a s)).
Proof.
  intros Hw. revert a; induction s as [|c s IH]; intros a.
  - simpl. rewrite drop_nil, take_nil.
    apply strip_all_ws. apply all_ws_take, all_ws_drop; exact Hw.
  - destruct a as [|a].
    + change (drop 0 (String c s ++ w)) with (String c s ++ w).
      change (drop 0 (String c s)) with (String c s).
      destruct (take_app_ws k (String c s) w Hw) as [w' [Hw' E]].
      rewrite E. apply strip_app_ws; exact Hw'.
    + simpl. apply IH.
Qed.

(* every stripped field read is blind to trailing blanks of the line *)
Theorem strip_slice_app_ws a b s w : all_ws w -> strip (slice a b (s ++ w)) = strip (slice a b s).
Proof. intros Hw. unfold slice. apply strip_take_drop_app_ws; exact Hw. Qed.

Lemma get_app_lt n s w c : String.get n s = Some c -> String.get n (s ++ w) = Some c.
Proof.
  revert n; induction s as [|d s IH]; intros [|n]; simpl; try discriminate; auto.
Qed.

Lemma strip_strip s : strip (strip s) = strip s.
Proof.
  destruct (rstrip_decomp (lstrip s)) as [w [Hw E]].
  assert (H : strip (strip s ++ w) = strip (strip s)) by (apply strip_app_ws; exact Hw).
  unfold strip at 2 in H. rewrite <- E in H.
  assert (L : strip (lstrip s) = strip s).
  { unfold strip. f_equal. clear. induction s as [|c s IH]; simpl; [reflexivity|].
    destruct (is_ws c) eqn:Hc; [exact IH|]. simpl. rewrite Hc. reflexivity. }
  rewrite L in H. symmetry. exact H.
Qed.

Lemma py_int_strip s : py_int (strip s) = py_int s.
Proof. unfold py_int. rewrite strip_strip. reflexivity. Qed.

Lemma py_int_ext s t : strip s = strip t -> py_int s = py_int t.
Proof. intros H. rewrite <- (py_int_strip s), <- (py_int_strip t), H. reflexivity. Qed.

Lemma rec_name_app_ws s w : all_ws w -> rec_name (s ++ w) = rec_name s.
Proof. intros H. unfold rec_name. apply strip_slice_app_ws; exact H. Qed.

Definition cols_of (a : atomrec) (l : string) : Prop :=
  rident a = line_ident l /\
  a_resname a = strip (slice 17 20 l) /\
  Some (a_serial a) = py_int (slice 6 11 l) /\
  a_x a = strip (slice 30 38 l) /\ a_y a = strip (slice 38 46 l) /\ a_z a = strip (slice 46 54 l).

Lemma line_ident_app_ws s w : all_ws w -> line_ident (s ++ w) = line_ident s.
Proof.
  intros Hw. unfold line_ident.
  rewrite !(strip_slice_app_ws _ _ s w Hw), (py_int_ext (slice 22 26 (s ++ w)) (slice 22 26 s))
    by (apply strip_slice_app_ws; exact Hw).
  reflexivity.
Qed.

Lemma cols_of_app_ws a s w : all_ws w -> cols_of a (s ++ w) <-> cols_of a s.
Proof.
  intros Hw. unfold cols_of.
  rewrite (line_ident_app_ws s w Hw), !(strip_slice_app_ws _ _ s w Hw),
    (py_int_ext (slice 6 11 (s ++ w)) (slice 6 11 s)) by (apply strip_slice_app_ws; exact Hw).
  reflexivity.
Qed.

Section Read.
  Variable fok : string -> bool.

  Lemma parse_cols_ok het src l a :
    parse_cols fok het src l = POk a ->
    a_src a = src /\ a_tok0 a = (if het then "HETATM" else "ATOM") /\ 26 < String.length l /\
    fok (a_z a) = true /\ cols_of a l.
  Proof.
    unfold parse_cols.
    destruct (rec_name l =? (if het then "HETATM" else "ATOM")) eqn:Ern; [|discriminate].
    apply String.eqb_eq in Ern. cbn [negb].
    destruct (py_int (slice 6 11 l)) as [serial|] eqn:I1; [|discriminate].
    destruct (String.get 16 l) as [c16|]; [|discriminate].
    destruct (String.get 21 l) as [c21|] eqn:G21; [|destruct het; discriminate].
    destruct (py_int (slice 22 26 l)) as [resseq|] eqn:I2; [|discriminate].
    destruct (String.get 26 l) as [c26|] eqn:G26; [|destruct het; discriminate].
    destruct (fok (strip (slice 30 38 l)) && fok (strip (slice 38 46 l)) && fok (strip (slice 46 54 l))) eqn:F;
      [|discriminate].
    intros H. injection H as <-. apply andb_true_iff in F as [_ Fz]. apply get_some_len in G26 as L.
    unfold cols_of, rident, line_ident.
    cbn [a_src a_tok0 a_chain a_resseq a_icode a_name a_resname a_serial a_x a_y a_z].
    rewrite !slice1_get, G21, G26, I1, I2. repeat split; assumption.
  Qed.

  (* IndexError only on a line too short for the fixed columns *)
  Lemma parse_cols_idx_len het src l :
    parse_cols fok het src l = PIdx -> String.length l <= (if het then 16 else 26).
  Proof.
    unfold parse_cols.
    destruct (negb (rec_name l =? (if het then "HETATM" else "ATOM"))); [discriminate|].
    destruct (py_int (slice 6 11 l)); [|discriminate].
    destruct (String.get 16 l) eqn:G16.
    2:{ intros _. apply get_none_len in G16. destruct het; lia. }
    destruct (String.get 21 l) eqn:G21.
    2:{ destruct het; [discriminate|]. intros _. apply get_none_len in G21. lia. }
    destruct (py_int (slice 22 26 l)); [|discriminate].
    destruct (String.get 26 l) eqn:G26.
    2:{ destruct het; [discriminate|]. intros _. apply get_none_len in G26. lia. }
    destruct (fok (strip (slice 30 38 l)) && fok (strip (slice 38 46 l)) && fok (strip (slice 46 54 l)));
      discriminate.
  Qed.

  Definition forget (a : atomrec) : atomrec :=
    mkA (a_het a) "" (a_serial a) (a_name a) (a_alt a) (a_resname a) (a_chain a) (a_resseq a)
        (a_icode a) (a_x a) (a_y a) (a_z a) "".

  Definition pforget (p : presult) : presult :=
    match p with POk a => POk (forget a) | _ => p end.

  (* [take k l] is the line cut after column k.  (read_pdb strips the line first: a
     cut that ends in blanks is the cut at the last non-blank column in front of it.)
     A cut inside the z field (46 <= k <= 54) is accepted, z silently the truncated
     number (cut_inside_z); PVal is ValueError. *)

  Theorem parse_cols_take het src l n :
    54 <= n -> parse_cols fok het src (take n l) = parse_cols fok het src l.
  Proof.
    intros Hn. unfold parse_cols, rec_name.
    rewrite !(slice_take _ _ n l), !(get_take _ n l) by lia. reflexivity.
  Qed.

  Theorem cut_inside_z het src l k a :
    46 <= k -> k <= 54 -> parse_cols fok het src (take k l) = POk a ->
    a_src a = src /\
    Some (a_serial a) = py_int (slice 6 11 l) /\ a_name a = strip (slice 12 16 l) /\
    a_resname a = strip (slice 17 20 l) /\ a_chain a = strip (slice 21 22 l) /\
    Some (a_resseq a) = py_int (slice 22 26 l) /\ a_icode a = strip (slice 26 27 l) /\
    a_x a = strip (slice 30 38 l) /\ a_y a = strip (slice 38 46 l) /\
    a_z a = strip (slice 46 k l).
  Proof.
    intros Hk1 Hk2 Hp.
    destruct (parse_cols_ok _ _ _ _ Hp) as [Hs [_ [_ [_ [Hi [Hrn [Hse [Hx [Hy Hz]]]]]]]]].
    unfold rident, line_ident in Hi. injection Hi as I1 I2 I3 I4.
    rewrite !(slice_take _ _ k l) in * by lia.
    rewrite slice_take_min, Nat.min_r in Hz by lia.
    repeat split; congruence.
  Qed.

  Theorem cut_before_z het src l k :
    27 <= k -> k <= 46 -> 26 < String.length l -> fok "" = false ->
    parse_cols fok het src (take k l) = PVal.
  Proof.
    intros Hk1 Hk2 Hl Hf. destruct (parse_cols fok het src (take k l)) as [a| |] eqn:E; [|reflexivity|].
    - apply parse_cols_ok in E as [_ [_ [_ [Fz [_ [_ [_ [_ [_ Hz]]]]]]]]].
      unfold slice in Hz. rewrite (drop_all 46 (take k l)) in Hz by (rewrite length_take; lia).
      rewrite Hz in Fz. change (fok "" = true) in Fz. congruence.
    - apply parse_cols_idx_len in E. rewrite length_take in E. destruct het; lia.
  Qed.

  (* too long for IndexError at column 17, too short to be accepted
     (ATOM lines that short use the fallback) *)
  Theorem cut_hetatm_short src l :
    16 < String.length l -> String.length l <= 26 -> parse_cols fok true src l = PVal.
  Proof.
    intros H1 H2. destruct (parse_cols fok true src l) as [a| |] eqn:E; [|reflexivity|].
    - apply parse_cols_ok in E as [_ [_ [L _]]]. lia.
    - apply parse_cols_idx_len in E. lia.
  Qed.

  Lemma atom_outcome_cases het s :
    atom_outcome fok het s = ORaise \/
    (exists a l', atom_outcome fok het s = ORec (RAtom a) /\ eff_line fok het s = Some l' /\
                  parse_cols fok het s l' = POk a).
  Proof.
    unfold atom_outcome, eff_line.
    destruct (parse_cols fok het s s) as [a| |] eqn:Ep.
    - right. exists a, s. split; [reflexivity|]. split; [|exact Ep].
      apply parse_cols_ok in Ep as [_ [_ [L _]]].
      assert (E : ((if het then 16 else 26) <? String.length s)%nat = true)
        by (apply Nat.ltb_lt; destruct het; lia).
      rewrite E. reflexivity.
    - left; reflexivity.
    - apply parse_cols_idx_len in Ep.
      assert (E : ((if het then 16 else 26) <? String.length s)%nat = false)
        by (apply Nat.ltb_ge; exact Ep).
      rewrite E. unfold read_atom. destruct (fallback_line fok s) as [nl|]; [|left; reflexivity].
      destruct (parse_cols fok het s nl) as [a| |] eqn:Ep2; [right; exists a, nl; auto | left; reflexivity ..].
  Qed.

  Lemma coord_het_name s het : coord_het s = Some het -> rec_name s = if het then "HETATM" else "ATOM".
  Proof.
    unfold coord_het.
    destruct (rec_name s =? "ATOM") eqn:E1; [intros [= <-]; apply String.eqb_eq, E1|].
    destruct (rec_name s =? "HETATM") eqn:E2; [intros [= <-]; apply String.eqb_eq, E2 | discriminate].
  Qed.

  (* the table of the known record names only separates the lines that are skipped
     from the unknown ones *)
  Lemma line_outcome_name s :
    line_outcome fok s =
    match coord_het s with
    | Some het => atom_outcome fok het s
    | None =>
        if rec_name s =? "TER" then ORec RTer else if rec_name s =? "END" then ORec REnd
        else if rec_name s =? "MODEL" then ORec RModel
        else if mem_str (rec_name s) known_records then OSkip else OErr
    end.
  Proof.
    unfold line_outcome, coord_het. generalize (rec_name s) as n. intros n.
    destruct (n =? "ATOM") eqn:E1; [apply String.eqb_eq in E1; subst n; reflexivity|].
    destruct (n =? "HETATM") eqn:E2; [apply String.eqb_eq in E2; subst n; reflexivity|].
    destruct (n =? "TER") eqn:E3; [apply String.eqb_eq in E3; subst n; reflexivity|].
    destruct (n =? "END") eqn:E4; [apply String.eqb_eq in E4; subst n; reflexivity|].
    destruct (n =? "MODEL") eqn:E5; [apply String.eqb_eq in E5; subst n; reflexivity|].
    destruct (mem_str n known_records); reflexivity.
  Qed.

  Variant line_view (s : string) : outcome -> Prop :=
  | LV_coord het : coord_het s = Some het -> line_view s (atom_outcome fok het s)
  | LV_ter : coord_het s = None -> rec_name s = "TER" -> line_view s (ORec RTer)
  | LV_end : coord_het s = None -> rec_name s = "END" -> line_view s (ORec REnd)
  | LV_model : coord_het s = None -> rec_name s = "MODEL" -> line_view s (ORec RModel)
  | LV_other : coord_het s = None -> mem_str (rec_name s) five_names = false ->
               line_view s (if mem_str (rec_name s) known_records then OSkip else OErr).

  Lemma line_outcome_view s : line_view s (line_outcome fok s).
  Proof.
    rewrite line_outcome_name. destruct (coord_het s) as [het|] eqn:Ec; [apply LV_coord, Ec|].
    destruct (rec_name s =? "TER") eqn:E3; [apply LV_ter; [exact Ec | apply String.eqb_eq, E3]|].
    destruct (rec_name s =? "END") eqn:E4; [apply LV_end; [exact Ec | apply String.eqb_eq, E4]|].
    destruct (rec_name s =? "MODEL") eqn:E5; [apply LV_model; [exact Ec | apply String.eqb_eq, E5]|].
    apply LV_other; [exact Ec|]. revert Ec. unfold coord_het. cbn [mem_str five_names]. rewrite E3, E4, E5.
    destruct (rec_name s =? "ATOM"); [discriminate|].
    destruct (rec_name s =? "HETATM"); [discriminate | reflexivity].
  Qed.

  (* errlist never receives one of the five record names Biomolecule reads, and only
     a line with one of them yields a record or raises *)
  Lemma outcome_five s :
    match line_outcome fok s with
    | OSkip => True
    | OErr => mem_str (rec_name s) five_names = false
    | _ => mem_str (rec_name s) five_names = true
    end.
  Proof.
    destruct (line_outcome_view s) as [het Ec|_ E|_ E|_ E|_ E]; try (rewrite E; reflexivity).
    - rewrite (coord_het_name s het Ec).
      destruct (atom_outcome_cases het s) as [->|[a [l' [-> _]]]]; destruct het; reflexivity.
    - destruct (mem_str (rec_name s) known_records); [exact I | exact E].
  Qed.

  (* the records one raw line contributes when its record name is not suppressed *)
  Definition recs_of_line (raw : string) : list rec :=
    let s := strip raw in
    if is_empty s then []
    else match line_outcome fok s with ORec r => [r] | _ => [] end.

  Definition no_five (errl : list string) : Prop :=
    forall n, mem_str n five_names = true -> mem_str n errl = false.

  Lemma read_loop_total lines : forall acc errl,
    forallb chunk_ok lines = true -> no_five errl ->
    if existsb (raises fok) lines then read_loop fok lines acc errl = None
    else exists e, read_loop fok lines acc errl =
                   Some ((rev acc ++ flat_map (line_recs fok) lines)%list, e).
  Proof.
    induction lines as [|raw rest IH]; intros acc errl Hc Hnf.
    - exists errl. cbn. rewrite app_nil_r. reflexivity.
    - cbn [forallb] in Hc. apply andb_true_iff in Hc as [Hx Hc]. apply negb_true_iff in Hx.
      cbn [read_loop existsb flat_map]. rewrite Hx. unfold raises at 1, line_recs at 1. cbv zeta.
      destruct (is_empty (strip raw)); cbn [negb andb orb app]; [apply IH; assumption|].
      pose proof (outcome_five (strip raw)) as H5.
      destruct (line_outcome fok (strip raw)) as [|r| |]; cbn [orb app].
      + destruct (mem_str (rec_name (strip raw)) errl); apply IH; assumption.
      + rewrite (Hnf _ H5). specialize (IH (r :: acc) errl Hc Hnf).
        cbn [rev] in IH. rewrite <- app_assoc in IH. exact IH.
      + destruct (mem_str (rec_name (strip raw)) errl); apply IH; try assumption.
        intros n Hn. rewrite mem_str_app, (Hnf _ Hn). cbn [mem_str orb]. rewrite orb_false_r.
        destruct (n =? rec_name (strip raw)) eqn:En; [|reflexivity].
        apply String.eqb_eq in En. congruence.
      + rewrite (Hnf _ H5). reflexivity.
  Qed.

  Theorem read_total lines :
    forallb chunk_ok lines = true ->
    if existsb (raises fok) lines then read_pdb fok lines = None
    else exists e, read_pdb fok lines = Some (flat_map (line_recs fok) lines, e).
  Proof. intros Hc. apply (read_loop_total lines [] [] Hc). intros n _. reflexivity. Qed.

  Definition blank_line (b : string) : Prop := is_empty b = false /\ strip b = "".

  Definition unknown_line (u : string) : Prop :=
    is_empty u = false /\ mem_str (rec_name (strip u)) known_records = false.

  Lemma read_loop_ext ls ls' :
    Forall2 (fun a b => is_empty a = is_empty b /\ strip a = strip b) ls ls' ->
    forall acc errl, read_loop fok ls acc errl = read_loop fok ls' acc errl.
  Proof.
    induction 1 as [|a b ls ls' [He Hs] _ IH]; intros acc errl; simpl; [reflexivity|].
    rewrite He, Hs. destruct (is_empty b); [reflexivity|].
    destruct (is_empty (strip b)); [apply IH|].
    destruct (mem_str (rec_name (strip b)) errl); [apply IH|].
    destruct (line_outcome fok (strip b)); try apply IH; reflexivity.
  Qed.

  (* two spellings of one line: the same body followed by blanks (\n, \r\n,
     padding, nothing), neither being the empty EOF sentinel *)
  Definition same_body (a b : string) : Prop :=
    exists body w1 w2, all_ws w1 /\ all_ws w2 /\ a = body ++ w1 /\ b = body ++ w2 /\
                       is_empty a = false /\ is_empty b = false.

  Theorem read_pdb_same_body ls ls' :
    Forall2 same_body ls ls' -> read_pdb fok ls = read_pdb fok ls'.
  Proof.
    intros H. apply read_loop_ext. induction H as [|a b ls ls' Hab _ IH]; constructor; [|exact IH].
    destruct Hab as [body [w1 [w2 [H1 [H2 [Ea [Eb [Na Nb]]]]]]]]. split; [congruence|].
    rewrite Ea, Eb, !strip_app_ws by assumption. reflexivity.
  Qed.

End Read.

(* no EOF sentinel "" among the chunks of readlines s = cons_ne applied to the two
   components of [rl s]: cons_ne preserves the property, the tail of [rl s] has it *)

Lemma cons_ne_no_empty h t : Forall (fun l => is_empty l = false) t ->
  Forall (fun l => is_empty l = false) (cons_ne h t).
Proof.
  intros H. unfold cons_ne. destruct (is_empty h) eqn:E; [exact H|]. constructor; assumption.
Qed.

Lemma rl_no_empty s : Forall (fun l => is_empty l = false) (snd (rl s)).
Proof.
  induction s as [|c s IH]; simpl; [constructor|].
  destruct (rl s) as [h t]. simpl in IH.
  match goal with |- context [if ?b then _ else _] => destruct b end; cbn [snd];
    [apply cons_ne_no_empty; exact IH | exact IH].
Qed.
