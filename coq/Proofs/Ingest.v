(* C07, line level: read_pdb, the grouping theorem and the column specification
   tied together.  First for ALL line lists, against [cols_read2] (every
   coordinate line is read from the fixed-column text [spec_line] names); then
   under G1, where every record line is its own fixed-column text, the two
   specifications coincide and the guarded property theorems follow. *)
From Coq Require Import String Ascii List Arith NArith ZArith Bool Lia Permutation.
From PV Require Import Lib.Lists Lib.Strings Lib.Decimal Model.PdbRead Model.Group Model.PdbSpec
  Proofs.PdbRead Proofs.Group.
Import ListNotations.
Local Open Scope string_scope.
Local Open Scope list_scope.

Section Ingest.
  Variable fok : string -> bool.
  Variable tab : deftab.

  Lemma line_recs_eq raw : recs_of_line fok raw = line_recs fok raw.
  Proof. reflexivity. Qed.

  Lemma char_field_slice n s w c :
    all_ws w -> String.get n s = Some c -> strip (slice n (S n) (s ++ w)%string) = char_field c.
  Proof.
    intros Hw Hg. rewrite strip_slice_app_ws by exact Hw. rewrite slice1_get, Hg. reflexivity.
  Qed.

  (* a blank line has the record name "", which is not a known one *)
  Lemma line_recs_outcome raw :
    line_recs fok raw = match line_outcome fok (strip raw) with ORec r => [r] | _ => [] end.
  Proof.
    unfold line_recs. cbv zeta. destruct (is_empty (strip raw)) eqn:E; [|reflexivity].
    apply is_empty_true in E. rewrite E. reflexivity.
  Qed.

  (* the atom was read from line [raw], by fixed columns from the text [spec_line] names /
     from [raw] itself *)
  Definition reads2 (a : atomrec) (raw : string) : Prop :=
    a_src a = strip raw /\ exists l', spec_line fok raw = Some l' /\ cols_of a l'.

  Definition reads (a : atomrec) (raw : string) : Prop :=
    a_src a = strip raw /\ rident a = line_ident raw /\
    a_resname a = strip (slice 17 20 raw) /\
    Some (a_serial a) = py_int (slice 6 11 raw) /\
    a_x a = strip (slice 30 38 raw) /\ a_y a = strip (slice 38 46 raw) /\
    a_z a = strip (slice 46 54 raw).

  Lemma reads_cols a raw : reads a raw <-> a_src a = strip raw /\ cols_of a raw.
  Proof. reflexivity. Qed.

  Lemma coord_line2 raw :
    is_coord2 raw = true -> raises fok raw = false ->
    exists a, line_recs fok raw = [RAtom a] /\ reads2 a raw /\ tok0_ok a = true.
  Proof.
    unfold is_coord2, raises, reads2, spec_line. rewrite line_recs_outcome. cbv zeta.
    destruct (line_outcome_view fok (strip raw)) as [het Ec|Ec _|Ec _|Ec _|Ec _]; rewrite Ec;
      try discriminate. intros _ Hr.
    destruct (atom_outcome_cases fok het (strip raw)) as [H|[a [l' [H [He Hp]]]]]; rewrite H in *.
    - destruct (strip raw); discriminate.
    - exists a. destruct (parse_cols_ok _ _ _ _ _ Hp) as [Hs [Ht [_ [_ Hcol]]]].
      split; [reflexivity|]. split; [split; [exact Hs | exists l'; split; assumption]|].
      unfold tok0_ok. rewrite Ht. destruct het; reflexivity.
  Qed.

  Lemma noncoord_line2 raw : is_coord2 raw = false -> atoms_of (line_recs fok raw) = [].
  Proof.
    unfold is_coord2. rewrite line_recs_outcome.
    destruct (line_outcome_view fok (strip raw)) as [het Ec|_ _|_ _|_ _|_ _];
      [rewrite Ec; discriminate | reflexivity ..|].
    destruct (mem_str (rec_name (strip raw)) known_records); reflexivity.
  Qed.

  Lemma model_line2 raw : is_model2 raw = true -> line_recs fok raw = [RModel].
  Proof.
    unfold is_model2. intros H. apply String.eqb_eq in H.
    rewrite line_recs_outcome. unfold line_outcome. rewrite H. reflexivity.
  Qed.

  Lemma nonmodel_line2 raw : is_model2 raw = false -> ~ In RModel (line_recs fok raw).
  Proof.
    unfold is_model2. intros H. rewrite line_recs_outcome.
    destruct (line_outcome_view fok (strip raw)) as [het _|_ _|_ _|_ E|_ _].
    - destruct (atom_outcome_cases fok het (strip raw)) as [->|[a [l' [-> _]]]];
        [intros [] | intros [E|[]]; discriminate].
    - intros [E|[]]; discriminate.
    - intros [E|[]]; discriminate.
    - rewrite E in H. discriminate.
    - destruct (mem_str (rec_name (strip raw)) known_records); intros [].
  Qed.

  Lemma reads2_ident a l : reads2 a l -> rident a = line_ident2 fok l.
  Proof. intros [_ [l' [E [R _]]]]. unfold line_ident2. rewrite E. exact R. Qed.

  Lemma reads2_water a l :
    is_coord2 l = true -> reads2 a l -> is_water_line2 fok l = mem_str (a_resname a) water_names.
  Proof. intros Hc [_ [l' [E [_ [Rn _]]]]]. unfold is_water_line2. rewrite Hc, E, Rn. reflexivity. Qed.

  Lemma first_model2_sub seen lines x : In x (first_model2 seen lines) -> In x lines.
  Proof.
    revert seen; induction lines as [|l r IH]; intros seen; simpl; [tauto|].
    destruct (is_model2 l).
    - destruct seen; [intros []|]. intros [H|H]; [left; exact H | right; eapply IH; exact H].
    - intros [H|H]; [left; exact H | right; eapply IH; exact H].
  Qed.

  Lemma first_listed2_sub ls x : forall seen, In x (first_listed2 fok seen ls) -> In x ls.
  Proof.
    induction ls as [|l r IH]; intros seen; simpl; [tauto|].
    destruct (existsb (ident_eqb (line_ident2 fok l)) seen).
    - intros H. right. eapply IH; exact H.
    - intros [H|H]; [left; exact H | right; eapply IH; exact H].
  Qed.

  Lemma cols_read2_sub lines x : In x (cols_read2 fok lines) -> In x lines.
  Proof.
    intros H. apply first_listed2_sub, filter_In in H as [H _]. eapply first_model2_sub; exact H.
  Qed.

  Lemma fm_first_model2 lines : forall seen : bool,
    fm (if seen then 1 else 0) (flat_map (line_recs fok) lines) =
    flat_map (line_recs fok) (first_model2 seen lines).
  Proof.
    induction lines as [|l r IH]; intros seen; [destruct seen; reflexivity|].
    cbn [flat_map first_model2]. destruct (is_model2 l) eqn:Em.
    - rewrite (model_line2 l Em). destruct seen; [reflexivity|].
      cbn [app fm Nat.leb flat_map]. rewrite (model_line2 l Em). cbn [app]. f_equal. apply (IH true).
    - rewrite fm_app_nomodel by (apply nonmodel_line2; exact Em).
      cbn [flat_map]. f_equal. apply IH.
  Qed.

  Lemma atoms_lines2 ls :
    existsb (raises fok) ls = false ->
    Forall2 reads2 (atoms_of (flat_map (line_recs fok) ls)) (filter is_coord2 ls).
  Proof.
    induction ls as [|l r IH]; intros Hr; simpl; [constructor|].
    simpl in Hr. apply orb_false_iff in Hr as [Hrl Hr].
    rewrite atoms_of_app. destruct (is_coord2 l) eqn:Ec.
    - destruct (coord_line2 l Ec Hrl) as [a [E [R _]]]. rewrite E. simpl.
      constructor; [exact R | apply IH; assumption].
    - rewrite (noncoord_line2 l Ec). simpl. apply IH; assumption.
  Qed.

  Lemma kept_lines2 az ls :
    Forall2 reads2 az ls ->
    forall seen, Forall2 reads2 (keep_first same_ident seen az) (first_listed2 fok (map rident seen) ls).
  Proof.
    induction 1 as [|a l az ls R _ IH]; intros seen; simpl; [constructor|].
    rewrite <- (reads2_ident a l R).
    assert (E : existsb (ident_eqb (rident a)) (map rident seen) = existsb (same_ident a) seen).
    { clear. induction seen as [|s S IHs]; simpl; [reflexivity|]. rewrite IHs. reflexivity. }
    rewrite E. destruct (existsb (same_ident a) seen); [apply IH|].
    constructor; [exact R | apply (IH (a :: seen))].
  Qed.

  (* the records the specification selects, as parsed atoms *)
  Lemma spec_atoms2 lines :
    existsb (raises fok) lines = false ->
    Forall2 reads2
      (keep_first same_ident [] (atoms_of (fm 0 (flat_map (line_recs fok) lines))))
      (cols_read2 fok lines).
  Proof.
    intros Hr. rewrite (fm_first_model2 lines false).
    apply (kept_lines2 _ _ (atoms_lines2 _ (existsb_sub _ _ _ (first_model2_sub false lines) Hr)) []).
  Qed.

  Lemma reads2_src az ls : Forall2 reads2 az ls -> map a_src az = map strip ls.
  Proof. apply Forall2_map_eq. intros a l [R _]. exact R. Qed.

  Section Stable.
    (* any observation of an atom that the residue constructors do not touch *)
    Variable B : Type.
    Variable p : atomrec -> B.
    Hypothesis p_alt : forall a s, p (set_alt a s) = p a.
    Hypothesis p_name : forall a s, p (set_name a s) = p a.
    Hypothesis p_resname : forall a s, p (set_resname a s) = p a.
    Hypothesis p_het : forall a h, p (set_het a h) = p a.

    Theorem ingest_lines lines :
      guard2 fok tab lines = true -> existsb (raises fok) lines = false ->
      exists rs sa, ingest fok tab false lines = Done rs /\
        Permutation (map p (all_atoms rs)) (map p sa) /\ Forall2 reads2 sa (cols_read2 fok lines).
    Proof.
      unfold guard2. cbv zeta. intros H Hr. apply andb_true_iff in H as [Hg H].
      apply andb_true_iff in H as [Hin Hal].
      pose proof (read_total fok lines Hg) as Rt. rewrite Hr in Rt. destruct Rt as [e Er].
      destruct (group_complete B p p_alt p_name p_resname p_het tab _ Hin Hal) as [rs [Gr P]].
      exists rs. eexists. split; [|split; [exact P | exact (spec_atoms2 lines Hr)]].
      unfold ingest. rewrite Er, Gr. reflexivity.
    Qed.
  End Stable.

  Definition fields (a : atomrec) :=
    (a_src a, a_serial a, a_chain a, a_resseq a, a_icode a, a_x a, a_y a, a_z a).

  Lemma fields_cols a b l :
    fields b = fields a -> cols_of b l ->
    Some (a_serial a) = py_int (slice 6 11 l) /\
    a_chain a = strip (slice 21 22 l) /\
    Some (a_resseq a) = py_int (slice 22 26 l) /\
    a_icode a = strip (slice 26 27 l) /\
    a_x a = strip (slice 30 38 l) /\ a_y a = strip (slice 38 46 l) /\
    a_z a = strip (slice 46 54 l).
  Proof.
    unfold fields, cols_of, rident, line_ident. intros E [Hi [_ [Hs [Hx [Hy Hz]]]]].
    injection E as E1 E2 E3 E4 E5 E6 E7 E8. injection Hi as I1 I2 I3 _. repeat split; congruence.
  Qed.

  (* an atom of the result has the fields of a selected atom, which has a line *)
  Lemma fields_line {L} (R : atomrec -> L -> Prop) (l1 sa : list atomrec) ls a :
    Permutation (map fields l1) (map fields sa) -> Forall2 R sa ls -> In a l1 ->
    exists b l, In l ls /\ R b l /\ fields b = fields a.
  Proof.
    intros P F Ha. apply (in_map fields) in Ha. apply (Permutation_in _ P) in Ha.
    apply in_map_iff in Ha as [b [Eb Hb]]. destruct (Forall2_in_l _ _ _ _ F Hb) as [l [Il Rl]].
    exists b, l. auto.
  Qed.

  (* the hypothesis on raising lines covers the later models too: a raising coordinate
     line of a later model fails the whole read, because read_pdb parses every line
     before Biomolecule looks at models *)
  Theorem later_models_all lines :
    forallb chunk_ok lines = true -> existsb (raises fok) lines = false ->
    inert (flat_map (line_recs fok) lines) = true ->
    ingest fok tab false lines = ingest fok tab false (first_model2 false lines).
  Proof.
    intros Hc Hr Hin. pose proof (first_model2_sub false lines) as Hs.
    pose proof (read_total fok lines Hc) as R1. rewrite Hr in R1. destruct R1 as [e Er].
    pose proof (read_total fok _ (forallb_sub _ _ _ Hs Hc)) as R2.
    rewrite (existsb_sub _ _ _ Hs Hr) in R2. destruct R2 as [e' Er'].
    unfold ingest. rewrite Er, Er', <- (fm_first_model2 lines false), (group_first_model tab _ Hin).
    reflexivity.
  Qed.

  Lemma drop_water_lines2 lines :
    existsb (raises fok) lines = false ->
    drop_water (flat_map (line_recs fok) lines) =
    flat_map (line_recs fok) (filter (fun l => negb (is_water_line2 fok l)) lines).
  Proof.
    induction lines as [|l r IH]; intros Hr; [reflexivity|].
    simpl in Hr. apply orb_false_iff in Hr as [Hl Hr]. cbn [flat_map filter].
    rewrite drop_water_app, (IH Hr).
    destruct (is_coord2 l) eqn:Ec.
    - destruct (coord_line2 l Ec Hl) as [a [E [R Tl]]].
      rewrite (reads2_water a l Ec R), E. unfold drop_water at 1. cbn [filter dropped_by_drop_water].
      unfold tok0_ok in Tl. rewrite Tl. cbn [andb].
      destruct (mem_str (a_resname a) water_names); cbn [negb flat_map app]; [|rewrite E]; reflexivity.
    - assert (Wl : is_water_line2 fok l = false) by (unfold is_water_line2; rewrite Ec; reflexivity).
      rewrite Wl. cbn [negb flat_map]. f_equal.
      pose proof (noncoord_line2 l Ec) as Hn. unfold drop_water.
      induction (line_recs fok l) as [|x xs IHx]; [reflexivity|].
      destruct x; simpl in *; try discriminate; f_equal; apply IHx; exact Hn.
  Qed.

  Theorem drop_water_all lines :
    forallb chunk_ok lines = true -> existsb (raises fok) lines = false ->
    ingest fok tab true lines =
    ingest fok tab false (filter (fun l => negb (is_water_line2 fok l)) lines).
  Proof.
    intros Hc Hr.
    assert (Hs : forall x, In x (filter (fun l => negb (is_water_line2 fok l)) lines) -> In x lines)
      by (intros x Hx; apply filter_In in Hx; tauto).
    pose proof (read_total fok lines Hc) as R1. rewrite Hr in R1. destruct R1 as [e Er].
    pose proof (read_total fok _ (forallb_sub _ _ _ Hs Hc)) as R2.
    rewrite (existsb_sub _ _ _ Hs Hr) in R2. destruct R2 as [e' Er'].
    unfold ingest. rewrite Er, Er', (drop_water_lines2 lines Hr). reflexivity.
  Qed.

  (* G1: a record line starts in column 1 and the column parser accepts it *)

  Lemma g_line_names raw :
    g_line fok raw = true ->
    mem_str (rec_name raw) three || mem_str (rec_name (strip raw)) three = true ->
    rec_name raw = rec_name (strip raw) /\ exists w, all_ws w /\ raw = (strip raw ++ w)%string.
  Proof.
    unfold g_line. intros H Hc. apply andb_true_iff in H as [_ H]. cbv zeta in H.
    rewrite Hc in H. apply andb_true_iff in H as [H _]. apply String.eqb_eq in H.
    destruct (strip_decomp raw H) as [w [Hw E]]. split; [|exists w; split; assumption].
    rewrite E at 1. apply rec_name_app_ws; exact Hw.
  Qed.

  Lemma g_line_rec_name raw n :
    g_line fok raw = true -> mem_str n three = true ->
    (rec_name (strip raw) =? n) = (rec_name raw =? n).
  Proof.
    intros Hg Hn.
    assert (En : rec_name raw = n \/ rec_name (strip raw) = n -> rec_name raw = rec_name (strip raw)).
    { intros H. apply (g_line_names raw Hg). destruct H as [->| ->]; rewrite Hn; [reflexivity | apply orb_true_r]. }
    destruct (rec_name raw =? n) eqn:E.
    - apply String.eqb_eq in E. rewrite <- En, E by (left; exact E). apply String.eqb_refl.
    - apply String.eqb_neq in E. apply String.eqb_neq. intros E'. apply E. rewrite En; auto.
  Qed.

  Lemma g_line_coord raw het :
    g_line fok raw = true -> coord_het (strip raw) = Some het ->
    exists a w, parse_cols fok het (strip raw) (strip raw) = POk a /\ all_ws w /\
                raw = (strip raw ++ w)%string.
  Proof.
    intros Hg Hc.
    assert (H3 : mem_str (rec_name (strip raw)) three = true).
    { revert Hc. unfold coord_het. cbn [mem_str three].
      destruct (rec_name (strip raw) =? "ATOM"); [reflexivity|].
      destruct (rec_name (strip raw) =? "HETATM"); [reflexivity | discriminate]. }
    destruct (g_line_names raw Hg) as [_ [w [Hw Ew]]]; [rewrite H3; apply orb_true_r|].
    revert Hg Hc. unfold g_line, coord_het. cbv zeta. rewrite H3, orb_true_r. intros Hg Hc.
    apply andb_true_iff in Hg as [_ Hg]. apply andb_true_iff in Hg as [_ Hg].
    destruct (rec_name (strip raw) =? "ATOM").
    { injection Hc as <-. destruct (parse_cols fok false (strip raw) (strip raw)) as [a| |];
        [exists a, w; auto | discriminate ..]. }
    destruct (rec_name (strip raw) =? "HETATM"); [|discriminate].
    injection Hc as <-. destruct (parse_cols fok true (strip raw) (strip raw)) as [a| |];
      [exists a, w; auto | discriminate ..].
  Qed.

  Lemma g_line_total raw : g_line fok raw = true -> chunk_ok raw = true /\ raises fok raw = false.
  Proof.
    intros Hg. split; [unfold g_line in Hg; apply andb_true_iff in Hg as [Hg _]; exact Hg|].
    unfold raises. cbv zeta.
    destruct (line_outcome_view fok (strip raw)) as [het Ec|_ _|_ _|_ _|_ _]; try apply andb_false_r.
    - destruct (g_line_coord raw het Hg Ec) as [a [w [Hp _]]].
      unfold atom_outcome. rewrite Hp. apply andb_false_r.
    - destruct (mem_str (rec_name (strip raw)) known_records); apply andb_false_r.
  Qed.

  Lemma g_lines_total lines :
    forallb (g_line fok) lines = true ->
    forallb chunk_ok lines = true /\ existsb (raises fok) lines = false.
  Proof.
    induction lines as [|l r IH]; intros H; [split; reflexivity|].
    cbn [forallb] in H. apply andb_true_iff in H as [Hl Hr].
    destruct (g_line_total l Hl) as [C R], (IH Hr) as [Cs Rs].
    cbn [forallb existsb]. rewrite C, R, Cs, Rs. split; reflexivity.
  Qed.

  Theorem read_guarded lines :
    forallb (g_line fok) lines = true ->
    exists e, read_pdb fok lines = Some (flat_map (line_recs fok) lines, e).
  Proof.
    intros H. destruct (g_lines_total lines H) as [Hc Hr].
    pose proof (read_total fok lines Hc) as R. rewrite Hr in R. exact R.
  Qed.

  Lemma g_line_model raw : g_line fok raw = true -> is_model2 raw = is_model raw.
  Proof. intros Hg. apply g_line_rec_name; [exact Hg | reflexivity]. Qed.

  Lemma g_line_is_coord raw : g_line fok raw = true -> is_coord2 raw = is_coord raw.
  Proof.
    intros Hg. unfold is_coord2, is_coord, coord_het. cbn [mem_str].
    rewrite !(g_line_rec_name raw _ Hg) by reflexivity.
    destruct (rec_name raw =? "ATOM"); [reflexivity|].
    destruct (rec_name raw =? "HETATM"); reflexivity.
  Qed.

  (* a coordinate line is its own fixed-column text, up to trailing blanks *)
  Lemma g_line_spec raw :
    g_line fok raw = true -> is_coord2 raw = true ->
    spec_line fok raw = Some (strip raw) /\ exists w, all_ws w /\ raw = (strip raw ++ w)%string.
  Proof.
    unfold is_coord2, spec_line. cbv zeta. intros Hg Hc.
    destruct (coord_het (strip raw)) as [het|] eqn:Ec; [|discriminate].
    destruct (g_line_coord raw het Hg Ec) as [a [w [Hp Hw]]]. split; [|exists w; exact Hw].
    apply parse_cols_ok in Hp as [_ [_ [L _]]]. unfold eff_line.
    assert (E : ((if het then 16 else 26) <? String.length (strip raw))%nat = true)
      by (apply Nat.ltb_lt; destruct het; lia).
    rewrite E. reflexivity.
  Qed.

  Lemma g_line_reads a raw : g_line fok raw = true -> reads2 a raw -> reads a raw.
  Proof.
    intros Hg [Hs [l' [E C]]]. apply reads_cols. split; [exact Hs|].
    assert (Hc : is_coord2 raw = true).
    { revert E. unfold is_coord2, spec_line. cbv zeta. destruct (coord_het (strip raw)); [reflexivity | discriminate]. }
    destruct (g_line_spec raw Hg Hc) as [E' [w [Hw Ew]]].
    rewrite E' in E. injection E as <-. rewrite Ew. apply cols_of_app_ws; assumption.
  Qed.

  Lemma g_line_ident raw : g_line fok raw = true -> is_coord2 raw = true -> line_ident2 fok raw = line_ident raw.
  Proof.
    intros Hg Hc. destruct (g_line_spec raw Hg Hc) as [E [w [Hw Ew]]].
    unfold line_ident2. rewrite E. rewrite Ew at 2. symmetry. apply line_ident_app_ws, Hw.
  Qed.

  Lemma g_line_water raw : g_line fok raw = true -> is_water_line2 fok raw = is_water_line raw.
  Proof.
    intros Hg. unfold is_water_line2, is_water_line. rewrite <- (g_line_is_coord raw Hg).
    destruct (is_coord2 raw) eqn:Hc; [|reflexivity].
    destruct (g_line_spec raw Hg Hc) as [E [w [Hw Ew]]]. rewrite E. rewrite Ew at 2.
    rewrite (strip_slice_app_ws _ _ _ w Hw). reflexivity.
  Qed.

  Lemma g1_first_model lines : forallb (g_line fok) lines = true ->
    forall seen, first_model2 seen lines = first_model seen lines.
  Proof.
    induction lines as [|l r IH]; intros H seen; [reflexivity|].
    cbn [forallb] in H. apply andb_true_iff in H as [Hl Hr].
    cbn [first_model2 first_model]. rewrite (g_line_model l Hl), !(IH Hr). reflexivity.
  Qed.

  Lemma g1_first_listed ls : Forall (fun l => g_line fok l = true /\ is_coord2 l = true) ls ->
    forall seen, first_listed2 fok seen ls = first_listed seen ls.
  Proof.
    induction 1 as [|l r [Hg Hc] _ IH]; intros seen; [reflexivity|].
    cbn [first_listed2 first_listed]. rewrite (g_line_ident l Hg Hc), !IH. reflexivity.
  Qed.

  Lemma g1_cols_read lines : forallb (g_line fok) lines = true -> cols_read2 fok lines = cols_read lines.
  Proof.
    intros H. unfold cols_read2, cols_read. rewrite (g1_first_model lines H).
    rewrite forallb_forall in H.
    assert (Hf : forall l, In l (first_model false lines) -> g_line fok l = true).
    { intros l Hl. apply H. rewrite <- (g1_first_model lines) in Hl by (apply forallb_forall; exact H).
      eapply first_model2_sub; exact Hl. }
    rewrite <- (filter_ext_in is_coord2 is_coord) by (intros l Hl; apply g_line_is_coord, Hf, Hl).
    apply g1_first_listed, Forall_forall. intros l Hl. apply filter_In in Hl as [Hl Hc]. auto.
  Qed.

  Lemma g1_water lines : forallb (g_line fok) lines = true ->
    filter (fun l => negb (is_water_line2 fok l)) lines = filter (fun l => negb (is_water_line l)) lines.
  Proof.
    rewrite forallb_forall. intros H. apply filter_ext_in. intros l Hl.
    rewrite (g_line_water l (H l Hl)). reflexivity.
  Qed.

  Lemma g1_reads sa lines :
    forallb (g_line fok) lines = true ->
    Forall2 reads2 sa (cols_read2 fok lines) -> Forall2 reads sa (cols_read lines).
  Proof.
    intros Hg F. rewrite <- (g1_cols_read lines Hg). apply (Forall2_impl_in reads2); [|exact F].
    intros a l Hl. apply g_line_reads. rewrite forallb_forall in Hg. apply Hg.
    eapply cols_read2_sub; exact Hl.
  Qed.

  Lemma spec_atoms lines :
    forallb (g_line fok) lines = true ->
    Forall2 reads
      (keep_first same_ident [] (atoms_of (fm 0 (flat_map (line_recs fok) lines))))
      (cols_read lines).
  Proof.
    intros Hg. destruct (g_lines_total lines Hg) as [_ Hr].
    exact (g1_reads _ lines Hg (spec_atoms2 lines Hr)).
  Qed.

  Lemma guard_inv lines :
    guard fok tab lines = true ->
    forallb (g_line fok) lines = true /\ guard2 fok tab lines = true /\
    existsb (raises fok) lines = false.
  Proof.
    unfold guard, guard2. intros H. apply andb_true_iff in H as [Hg H].
    destruct (g_lines_total lines Hg) as [Hc Hr]. unfold g1'. rewrite Hc, H. auto.
  Qed.

  (* C07 for any observation the residue constructors do not touch *)
  Theorem ingest_guarded (B : Type) (p : atomrec -> B)
    (p_alt : forall a s, p (set_alt a s) = p a) (p_name : forall a s, p (set_name a s) = p a)
    (p_resname : forall a s, p (set_resname a s) = p a) (p_het : forall a h, p (set_het a h) = p a)
    lines :
    guard fok tab lines = true ->
    exists rs sa, ingest fok tab false lines = Done rs /\
      Permutation (map p (all_atoms rs)) (map p sa) /\ Forall2 reads sa (cols_read lines).
  Proof.
    intros H. destruct (guard_inv lines H) as [Hg [H2 Hr]].
    destruct (ingest_lines B p p_alt p_name p_resname p_het lines H2 Hr) as [rs [sa [E [P F]]]].
    exists rs, sa. split; [exact E|]. split; [exact P | exact (g1_reads sa lines Hg F)].
  Qed.

  Lemma reads_src az ls : Forall2 reads az ls -> map a_src az = map strip ls.
  Proof. apply Forall2_map_eq. intros a l [R _]. exact R. Qed.

  Theorem ingest_complete lines :
    guard fok tab lines = true ->
    exists rs, ingest fok tab false lines = Done rs /\
      Permutation (map a_src (all_atoms rs)) (map strip (cols_read lines)).
  Proof.
    intros H. destruct (ingest_guarded string a_src (fun _ _ => eq_refl) (fun _ _ => eq_refl)
                          (fun _ _ => eq_refl) (fun _ _ => eq_refl) lines H) as [rs [sa [E [P F]]]].
    exists rs. split; [exact E|]. rewrite <- (reads_src _ _ F). exact P.
  Qed.

  (* every atom of the result carries the column fields of a selected line *)
  Theorem atom_fields lines rs :
    guard fok tab lines = true -> ingest fok tab false lines = Done rs ->
    forall a, In a (all_atoms rs) ->
      exists l, In l (cols_read lines) /\
        a_src a = strip l /\
        Some (a_serial a) = py_int (slice 6 11 l) /\
        a_chain a = strip (slice 21 22 l) /\
        Some (a_resseq a) = py_int (slice 22 26 l) /\
        a_icode a = strip (slice 26 27 l) /\
        a_x a = strip (slice 30 38 l) /\ a_y a = strip (slice 38 46 l) /\
        a_z a = strip (slice 46 54 l).
  Proof.
    intros H Hi a Ha.
    destruct (ingest_guarded _ fields (fun _ _ => eq_refl) (fun _ _ => eq_refl)
                (fun _ _ => eq_refl) (fun _ _ => eq_refl) lines H) as [rs' [sa [E [P F]]]].
    rewrite E in Hi. injection Hi as ->.
    destruct (fields_line reads _ _ _ a P F Ha) as [b [l [Il [[Rs C] Eb]]]].
    exists l. split; [exact Il|]. split; [|exact (fields_cols a b l Eb C)].
    rewrite <- Rs. unfold fields in Eb. injection Eb as E1 _. symmetry; exact E1.
  Qed.

  Theorem later_models_ignored lines :
    guard_models fok lines = true ->
    ingest fok tab false lines = ingest fok tab false (first_model false lines).
  Proof.
    unfold guard_models. intros H. apply andb_true_iff in H as [Hg Hin].
    destruct (g_lines_total lines Hg) as [Hc Hr].
    rewrite <- (g1_first_model lines Hg). apply later_models_all; assumption.
  Qed.

  Theorem drop_water_is_deletion lines :
    forallb (g_line fok) lines = true ->
    ingest fok tab true lines =
    ingest fok tab false (filter (fun l => negb (is_water_line l)) lines).
  Proof.
    intros Hg. destruct (g_lines_total lines Hg) as [Hc Hr].
    rewrite <- (g1_water lines Hg). apply drop_water_all; assumption.
  Qed.

  Lemma ingest_fst d l1 l2 :
    option_map fst (read_pdb fok l1) = option_map fst (read_pdb fok l2) ->
    ingest fok tab d l1 = ingest fok tab d l2.
  Proof.
    unfold ingest. destruct (read_pdb fok l1) as [[r1 e1]|], (read_pdb fok l2) as [[r2 e2]|];
      simpl; intros H; try discriminate; [injection H as H; subst; reflexivity | reflexivity].
  Qed.

  Theorem ingest_same_body d ls ls' :
    Forall2 same_body ls ls' -> ingest fok tab d ls = ingest fok tab d ls'.
  Proof. intros H. apply ingest_fst. rewrite (read_pdb_same_body fok ls ls' H). reflexivity. Qed.

  Lemma in_atoms_of a l : In (RAtom a) l -> In a (atoms_of l).
  Proof.
    induction l as [|x l IH]; [intros []|]. intros [H|H].
    - subst x. left; reflexivity.
    - destruct x; simpl; [right|idtac|idtac|idtac]; apply IH; exact H.
  Qed.

End Ingest.
