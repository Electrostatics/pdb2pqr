(* Proofs about Model/SSBridge.v (C13). *)
From Coq Require Import List Arith ZArith Bool Lia Permutation.
From PV Require Import Lib.Lists Model.SSBridge.
Import ListNotations.

Lemma nonempty_false (l : list nat) : nonempty l = false <-> l = [].
Proof. destruct l; cbn; split; intros H; try reflexivity; discriminate. Qed.

Lemma upd_same m k v : upd m k v k = v.
Proof. unfold upd. rewrite Nat.eqb_refl. reflexivity. Qed.

Lemma upd_other m k v x : x <> k -> upd m k v x = m x.
Proof. unfold upd. intros H. destruct (Nat.eqb x k) eqn:E; [apply Nat.eqb_eq in E; contradiction|reflexivity]. Qed.

Section Loop.
  Variable close : nat -> nat -> bool.
  Hypothesis close_sym : forall a b, close a b = close b a.
  Variable keys : list nat.

  (* every recorded partner is a distinct key within the limit; membership is
     mutual; no partner is recorded twice *)
  Definition Inv (m : pmap) : Prop :=
    (forall x y, In y (m x) -> close x y = true /\ x <> y /\ In y keys) /\
    (forall x y, In y (m x) -> In x (m y)) /\
    (forall x, NoDup (m x)).

  Lemma inv_pm0 : Inv pm0.
  Proof. unfold Inv, pm0. repeat split; try contradiction. constructor. Qed.

  (* the state after one successful test in the inner loop: the edges a - p and p - a are added *)
  Definition link (m : pmap) (a p : nat) : pmap := upd (upd m a (m a ++ [p])) p (m p ++ [a]).

  Lemma in_link m a p x y : a <> p ->
    In y (link m a p x) <-> In y (m x) \/ (x = a /\ y = p) \/ (x = p /\ y = a).
  Proof.
    intros Hap. unfold link. destruct (Nat.eq_dec x p) as [->|Hxp].
    - rewrite upd_same, in_app_iff. cbn [In]. intuition congruence.
    - rewrite upd_other by exact Hxp. destruct (Nat.eq_dec x a) as [->|Hxa].
      + rewrite upd_same, in_app_iff. cbn [In]. intuition congruence.
      + rewrite upd_other by exact Hxa. intuition congruence.
  Qed.

  Lemma link_inv m a p :
    Inv m -> In a keys -> In p keys -> a <> p -> m a = [] -> close a p = true ->
    Inv (link m a p).
  Proof.
    intros (HS & HM & HN) Ha Hp Hap Hma Hc.
    assert (Hpa : ~ In a (m p)) by (intros H; apply HM in H; rewrite Hma in H; exact H).
    split; [|split].
    - intros x y H. apply (in_link m a p x y Hap) in H. destruct H as [H | [[-> ->] | [-> ->]]].
      + apply HS, H.
      + auto.
      + rewrite close_sym. auto.
    - intros x y H. apply (in_link m a p x y Hap) in H. apply (in_link m a p y x Hap).
      destruct H as [H | [[-> ->] | [-> ->]]]; [left; apply HM, H | right; right; auto | right; left; auto].
    - intros x. unfold link. destruct (Nat.eq_dec x p) as [->|Hxp].
      + rewrite upd_same. apply (Permutation_NoDup (Permutation_cons_append _ _)). constructor; [exact Hpa | apply HN].
      + rewrite upd_other by exact Hxp. destruct (Nat.eq_dec x a) as [->|Hxa].
        * rewrite upd_same, Hma. repeat constructor. intros [].
        * rewrite upd_other by exact Hxa. apply HN.
  Qed.

  Lemma inner_cons a p r m : inner close a (p :: r) m =
    inner close a r (if negb (Nat.eqb a p || nonempty (m a)) && close a p then link m a p else m).
  Proof.
    cbn [inner]. destruct (Nat.eqb a p || nonempty (m a)); [reflexivity|]. destruct (close a p); reflexivity.
  Qed.

  Lemma inner_inv a : In a keys ->
    forall ps m, incl ps keys -> Inv m -> Inv (inner close a ps m).
  Proof.
    intros Ha. induction ps as [|p r IH]; intros m Hincl Hinv; [exact Hinv|].
    rewrite inner_cons. apply IH; [intros z Hz; apply Hincl; right; exact Hz|].
    destruct (negb (Nat.eqb a p || nonempty (m a)) && close a p) eqn:E; [|exact Hinv].
    apply andb_true_iff in E. destruct E as [Eg Ec].
    apply negb_true_iff, orb_false_iff in Eg. destruct Eg as [Eap Ene].
    apply link_inv; [exact Hinv | exact Ha | apply Hincl; left; reflexivity | apply Nat.eqb_neq, Eap | apply nonempty_false, Ene | exact Ec].
  Qed.

  Lemma fold_inv : forall l m, incl l keys -> Inv m ->
    Inv (fold_left (fun m a => inner close a keys m) l m).
  Proof.
    induction l as [|a l IH]; intros m Hincl Hinv; cbn [fold_left]; [exact Hinv|].
    apply IH; [intros z Hz; apply Hincl; right; exact Hz|].
    apply inner_inv; [apply Hincl; left; reflexivity|apply incl_refl|exact Hinv].
  Qed.

  Lemma scan_inv : Inv (scan close keys).
  Proof. unfold scan. apply fold_inv; [apply incl_refl|apply inv_pm0]. Qed.

  (* A list is never emptied again, and an atom's own scan finds a partner if one exists. *)
  Lemma link_nonempty m a p x : m x <> [] \/ x = a -> link m a p x <> [].
  Proof.
    intros H. unfold link, upd. destruct (Nat.eqb x p); [destruct (m p); discriminate|].
    destruct (Nat.eqb x a) eqn:E; [destruct (m a); discriminate|].
    destruct H as [H | ->]; [exact H | rewrite Nat.eqb_refl in E; discriminate].
  Qed.

  Lemma inner_nonempty a x : forall ps m,
    m x <> [] \/ (x = a /\ exists j, In j ps /\ j <> a /\ close a j = true) ->
    inner close a ps m x <> [].
  Proof.
    induction ps as [|p r IH]; intros m H; [destruct H as [H | (_ & j & [] & _)]; exact H|].
    rewrite inner_cons. apply IH.
    destruct (Nat.eqb a p || nonempty (m a)) eqn:Eg; [|destruct (close a p) eqn:Ec]; cbn [negb andb].
    - destruct H as [H | (-> & j & Hj & Hja & Hc)]; [left; exact H|].
      destruct (m a) eqn:Ema; [right | left; discriminate].
      cbn [nonempty] in Eg. rewrite orb_false_r in Eg. apply Nat.eqb_eq in Eg. subst p.
      destruct Hj as [<- | Hj]; [contradiction|]. eauto.
    - left. apply link_nonempty. destruct H as [H | [-> _]]; [left; exact H | right; reflexivity].
    - destruct H as [H | (-> & j & Hj & Hja & Hc)]; [left; exact H | right].
      destruct Hj as [<- | Hj]; [rewrite Hc in Ec; discriminate|]. eauto.
  Qed.

  Lemma fold_nonempty x :
    (exists j, In j keys /\ j <> x /\ close x j = true) ->
    forall l m, (m x <> [] \/ In x l) ->
    fold_left (fun m a => inner close a keys m) l m x <> [].
  Proof.
    intros Hex. induction l as [|a l IH]; intros m H; cbn [fold_left]; [destruct H as [H|[]]; exact H|].
    apply IH. destruct H as [H|[->|H]]; [left | left | right; exact H]; apply inner_nonempty; auto.
  Qed.

  Lemma scan_nonempty x : In x keys ->
    (exists j, In j keys /\ j <> x /\ close x j = true) -> scan close keys x <> [].
  Proof.
    intros Hx Hex. unfold scan. apply fold_nonempty; [exact Hex|right; exact Hx].
  Qed.

  Lemma scan_sound x y : In y (scan close keys x) -> In y keys /\ y <> x /\ close x y = true.
  Proof.
    intros H. destruct scan_inv as (HS & _ & _). destruct (HS x y H) as (Hc & Hne & Hk). auto.
  Qed.

  Lemma scan_isolated x :
    (forall k, In k keys -> k <> x -> close x k = false) -> scan close keys x = [].
  Proof.
    intros Hiso. destruct (scan close keys x) as [|y t] eqn:E; [reflexivity|exfalso].
    destruct (scan_sound x y) as (Hk & Hne & Hc); [rewrite E; left; reflexivity|].
    rewrite (Hiso y Hk Hne) in Hc. discriminate.
  Qed.

  Definition at_most_one (x : nat) : Prop :=
    forall y z, In y keys -> In z keys -> y <> x -> z <> x ->
      close x y = true -> close x z = true -> y = z.

  Lemma scan_short x : at_most_one x -> (List.length (scan close keys x) <= 1)%nat.
  Proof.
    intros H1. apply nodup_all_equal_short; [apply scan_inv|].
    intros y z Hy Hz. apply scan_sound in Hy, Hz.
    destruct Hy as (? & ? & ?), Hz as (? & ? & ?). apply H1; assumption.
  Qed.

  (* with at most one sulfur in range the list is decided by the key *set* *)
  Lemma scan_decided x : In x keys -> at_most_one x ->
    (scan close keys x = [] /\ forall k, In k keys -> k <> x -> close x k = false) \/
    (exists j, scan close keys x = [j] /\ In j keys /\ j <> x /\ close x j = true).
  Proof.
    intros Hx H1. pose proof (scan_short x H1) as Hlen.
    destruct (scan close keys x) as [|y [|z t]] eqn:E; [left|right|cbn [List.length] in Hlen; lia].
    - split; [reflexivity|]. intros k Hk Hkx.
      destruct (close x k) eqn:Ec; [exfalso|reflexivity].
      apply (scan_nonempty x Hx); [|exact E]. exists k. repeat split; assumption.
    - exists y. split; [reflexivity|]. apply scan_sound. rewrite E. left. reflexivity.
  Qed.

  Lemma scan_unique x j : In x keys -> In j keys -> j <> x -> close x j = true ->
    (forall k, In k keys -> k <> x -> k <> j -> close x k = false) ->
    scan close keys x = [j].
  Proof.
    intros Hx Hj Hjx Hc Hoth.
    assert (Hj' : forall k, In k keys -> k <> x -> close x k = true -> k = j).
    { intros k Hk Hkx Hck. destruct (Nat.eq_dec k j) as [E|E]; [exact E|].
      rewrite (Hoth k Hk Hkx E) in Hck. discriminate. }
    destruct (scan_decided x Hx) as [[_ Hno] | (k & E & Hk & Hkx & Hck)].
    - intros y z Hy Hz Hyx Hzx Hcy Hcz. rewrite (Hj' y), (Hj' z); auto.
    - rewrite (Hno j Hj Hjx) in Hc. discriminate.
    - rewrite E, (Hj' k Hk Hkx Hck). reflexivity.
  Qed.
End Loop.

(* the partner list depends on the keys as a set only: independence of the processing order *)
Lemma scan_same_keys close (close_sym : forall a b, close a b = close b a) keys keys' x :
  (forall k, In k keys <-> In k keys') -> In x keys -> at_most_one close keys x ->
  scan close keys' x = scan close keys x.
Proof.
  intros HK Hx H1.
  assert (H1' : at_most_one close keys' x) by (intros y z Hy Hz; apply H1; apply HK; assumption).
  destruct (scan_decided close close_sym keys x Hx H1) as [[E Hno]|(j & E & Hj & Hjx & Hc)];
  destruct (scan_decided close close_sym keys' x (proj1 (HK x) Hx) H1') as [[E' Hno']|(j' & E' & Hj' & Hjx' & Hc')];
  rewrite E, E'; try reflexivity.
  - rewrite Hno in Hc'; [discriminate|apply HK; exact Hj'|exact Hjx'].
  - rewrite Hno' in Hc; [discriminate|apply HK; exact Hj|exact Hjx].
  - f_equal. apply H1; try assumption. apply HK; exact Hj'.
Qed.

Lemma in_sg_keys rs k : In k (sg_keys rs) <-> exists r, In r rs /\ c_sg r = true /\ c_id r = k.
Proof.
  unfold sg_keys. rewrite in_map_iff. split.
  - intros (r & E & Hr). apply filter_In in Hr. exists r. tauto.
  - intros (r & Hr & Hs & E). exists r. split; [exact E|]. apply filter_In. tauto.
Qed.

Lemma ss_result_partners close rs rs' r :
  partners_of close rs' r = partners_of close rs r -> ss_result close rs' r = ss_result close rs r.
Proof. unfold ss_result. intros ->. reflexivity. Qed.

(* exactly one partner: flagged, patched, CYX, HG removed or never added *)
Lemma ss_result_bonded close rs r j : partners_of close rs r = [j] ->
  let o := ss_result close rs r in
  o_partners o = [j] /\ o_bonded o = true /\ o_partner o = Some j /\ o_patched o = true /\
  o_ff o = CYX /\ o_hg o = false.
Proof.
  intros E. unfold ss_result. rewrite E.
  cbn [List.length Nat.eqb hd_error o_partners o_bonded o_partner o_patched o_ff o_hg negb orb].
  rewrite !andb_false_r. repeat split; reflexivity.
Qed.

Section Residues.
  Variable close : nat -> nat -> bool.
  Hypothesis close_sym : forall a b, close a b = close b a.

  (* the property's hypothesis for a pair *)
  Definition exclusive_pair (rs : list cres) (ri rj : cres) : Prop :=
    In ri rs /\ In rj rs /\ c_sg ri = true /\ c_sg rj = true /\ c_id ri <> c_id rj /\
    close (c_id ri) (c_id rj) = true /\
    forall rk, In rk rs -> c_sg rk = true -> c_id rk <> c_id ri -> c_id rk <> c_id rj ->
      close (c_id ri) (c_id rk) = false /\ close (c_id rj) (c_id rk) = false.

  Lemma pair_partners rs ri rj : exclusive_pair rs ri rj ->
    partners_of close rs ri = [c_id rj] /\ partners_of close rs rj = [c_id ri].
  Proof.
    intros (Hi & Hj & Si & Sj & Hne & Hc & Hoth). unfold partners_of. rewrite Si, Sj.
    assert (Ki : In (c_id ri) (sg_keys rs)) by (apply in_sg_keys; exists ri; tauto).
    assert (Kj : In (c_id rj) (sg_keys rs)) by (apply in_sg_keys; exists rj; tauto).
    split; apply scan_unique; auto.
    - intros k Hk Hki Hkj. apply in_sg_keys in Hk. destruct Hk as (rk & Hrk & Sk & <-).
      apply Hoth; assumption.
    - rewrite close_sym. exact Hc.
    - intros k Hk Hkj Hki. apply in_sg_keys in Hk. destruct Hk as (rk & Hrk & Sk & <-).
      apply Hoth; assumption.
  Qed.

  Theorem ss_pair_symmetric rs ri rj : exclusive_pair rs ri rj ->
    let oi := ss_result close rs ri in
    let oj := ss_result close rs rj in
    o_partners oi = [c_id rj] /\ o_partners oj = [c_id ri] /\
    o_bonded oi = true /\ o_bonded oj = true /\
    o_partner oi = Some (c_id rj) /\ o_partner oj = Some (c_id ri) /\
    o_patched oi = true /\ o_patched oj = true /\
    o_ff oi = CYX /\ o_ff oj = CYX /\
    o_hg oi = false /\ o_hg oj = false.
  Proof.
    intros H. destruct (pair_partners rs ri rj H) as [Ei Ej].
    pose proof (ss_result_bonded close rs ri _ Ei) as Hi. pose proof (ss_result_bonded close rs rj _ Ej) as Hj.
    cbv zeta in *. tauto.
  Qed.

  Definition isolated (rs : list cres) (r : cres) : Prop :=
    forall rk, In rk rs -> c_sg rk = true -> c_id rk <> c_id r -> close (c_id r) (c_id rk) = false.

  Lemma isolated_partners rs r : isolated rs r -> partners_of close rs r = [].
  Proof.
    intros Hiso. unfold partners_of. destruct (c_sg r); [|reflexivity].
    apply scan_isolated; [exact close_sym|].
    intros k Hk Hkr. apply in_sg_keys in Hk. destruct Hk as (rk & Hrk & Sk & <-).
    apply Hiso; assumption.
  Qed.

  Theorem ss_isolated_free rs r :
    c_name r = CYS -> isolated rs r -> (c_hg r = true \/ c_build r = true) ->
    let o := ss_result close rs r in
    o_partners o = [] /\ o_bonded o = false /\ o_partner o = None /\ o_patched o = false /\
    o_hg o = true /\ o_ff o = CYS.
  Proof.
    intros Hn Hiso Hb. unfold ss_result. rewrite (isolated_partners rs r Hiso), Hn.
    cbn [List.length Nat.eqb hd_error cname_eqb
      o_partners o_bonded o_partner o_patched o_ff o_hg negb orb andb].
    rewrite andb_true_r.
    assert (E : c_hg r || c_build r = true) by (destruct Hb as [-> | ->]; [reflexivity|apply orb_true_r]).
    rewrite E. cbn. repeat split; reflexivity.
  Qed.

  (* at most one sulfur in range of r's sulfur *)
  Definition at_most_one_res (rs : list cres) (r : cres) : Prop :=
    forall r1 r2, In r1 rs -> In r2 rs -> c_sg r1 = true -> c_sg r2 = true ->
      c_id r1 <> c_id r -> c_id r2 <> c_id r ->
      close (c_id r) (c_id r1) = true -> close (c_id r) (c_id r2) = true -> c_id r1 = c_id r2.

  Lemma ss_result_same_residues rs rs' r :
    (forall x, In x rs <-> In x rs') -> In r rs -> at_most_one_res rs r ->
    ss_result close rs' r = ss_result close rs r.
  Proof.
    intros HI Hr H1. apply ss_result_partners.
    unfold partners_of. destruct (c_sg r) eqn:Sr; [|reflexivity].
    apply scan_same_keys; [exact close_sym| | |].
    - intros k. rewrite !in_sg_keys. split; intros (rk & Hk & H); exists rk; (split; [apply HI, Hk | exact H]).
    - apply in_sg_keys. exists r. tauto.
    - intros y z Hy Hz Hyx Hzx Hcy Hcz.
      apply in_sg_keys in Hy. destruct Hy as (r1 & Hr1 & S1 & <-).
      apply in_sg_keys in Hz. destruct Hz as (r2 & Hr2 & S2 & <-).
      apply (H1 r1 r2); assumption.
  Qed.

  Theorem ss_perm_invariant rs rs' r :
    Permutation rs rs' -> In r rs -> at_most_one_res rs r ->
    ss_result close rs' r = ss_result close rs r.
  Proof.
    intros HP. apply ss_result_same_residues. intros x.
    split; apply Permutation_in; [|apply Permutation_sym]; exact HP.
  Qed.

  (* whole structure: every sulfur has at most one sulfur in range *)
  Theorem ss_perm_invariant_all rs rs' :
    Permutation rs rs' -> (forall r, In r rs -> at_most_one_res rs r) ->
    Permutation (ss_results close rs) (ss_results close rs').
  Proof.
    intros HP H1. unfold ss_results.
    rewrite (map_ext_in (fun r => (c_id r, ss_result close rs r))
                        (fun r => (c_id r, ss_result close rs' r))).
    - apply Permutation_map. exact HP.
    - intros r Hr. f_equal. symmetry. apply ss_perm_invariant; [exact HP|exact Hr|apply H1; exact Hr].
  Qed.
End Residues.

(* chain labels and residue numbers are never read *)
Definition relabel (f : cres -> nat) (g : cres -> Z) (r : cres) : cres :=
  mkres (c_id r) (c_name r) (c_sg r) (c_hg r) (c_build r) (f r) (g r).

Lemma sg_keys_relabel f g rs : sg_keys (map (relabel f g) rs) = sg_keys rs.
Proof.
  unfold sg_keys. induction rs as [|r rs IH]; [reflexivity|].
  cbn [map filter relabel c_sg]. destruct (c_sg r); cbn [map c_id]; rewrite IH; reflexivity.
Qed.

Theorem ss_label_invariant close f g rs r :
  ss_result close (map (relabel f g) rs) (relabel f g r) = ss_result close rs r.
Proof.
  unfold ss_result, partners_of. rewrite sg_keys_relabel. reflexivity.
Qed.

Lemma closeZ_sym tab a b : closeZ tab a b = closeZ tab b a.
Proof.
  unfold closeZ, dist2Z. destruct (coordZ tab a) as [[x1 y1] z1]. destruct (coordZ tab b) as [[x2 y2] z2].
  unfold zsq. f_equal. ring.
Qed.

(* the residues [R i] and coordinates [tri_tab] of the two witnesses with a third sulfur
   in range, which is outside the hypothesis of the pair and permutation theorems *)

Definition R (i : nat) : cres := mkres i CYS true false true 0 0%Z.

(* three sulfurs pairwise about 2.0 A apart (2.000, 1.972, 1.972; coordinates in milli-angstrom) *)
Definition tri_tab : list (nat * (Z * Z * Z)) :=
  [(0, (0, 0, 0)%Z); (1, (2000, 0, 0)%Z); (2, (1000, 1700, 0)%Z)].

Theorem ss_third_sulfur_order_dependent :
  exists (tab : list (nat * (Z * Z * Z))) (rs rs' : list cres) (r : cres),
    Permutation rs rs' /\ In r rs /\
    o_bonded (ss_result (closeZ tab) rs r) = false /\
    o_bonded (ss_result (closeZ tab) rs' r) = true.
Proof.
  exists tri_tab, [R 0; R 1; R 2], [R 2; R 1; R 0], (R 0).
  split; [|split; [left; reflexivity|split; vm_compute; reflexivity]].
  change [R 2; R 1; R 0] with (rev [R 0; R 1; R 2]). apply Permutation_rev.
Qed.

(* ... and then flagging is not mutual: 1 points at 0, 0 is not bonded *)
Theorem ss_third_sulfur_not_mutual :
  exists (tab : list (nat * (Z * Z * Z))) (rs : list cres) (ri rj : cres),
    In ri rs /\ In rj rs /\
    o_partner (ss_result (closeZ tab) rs ri) = Some (c_id rj) /\
    o_bonded (ss_result (closeZ tab) rs rj) = false /\
    o_partner (ss_result (closeZ tab) rs rj) = None.
Proof.
  exists tri_tab, [R 0; R 1; R 2], (R 1), (R 0).
  split; [right; left; reflexivity|split; [left; reflexivity|]].
  split; [|split]; vm_compute; reflexivity.
Qed.

(* a free CYS whose HG cannot be placed is named CYX by CYS.set_state
   (one of the behaviours listed in DESIGN.md, Appendix B) *)
Theorem ss_free_unbuildable_named_CYX :
  exists (rs : list cres) (r : cres),
    In r rs /\ c_name r = CYS /\ isolated (closeZ []) rs r /\
    o_bonded (ss_result (closeZ []) rs r) = false /\
    o_hg (ss_result (closeZ []) rs r) = false /\
    o_ff (ss_result (closeZ []) rs r) = CYX.
Proof.
  exists [mkres 0 CYS true false false 0 0%Z], (mkres 0 CYS true false false 0 0%Z).
  split; [left; reflexivity|split; [reflexivity|split]].
  - intros rk [<-|[]] _ H. contradiction H. reflexivity.
  - split; [|split]; vm_compute; reflexivity.
Qed.
