(* E2E_Assign: pdb2pqr --assign-only end to end.  The theorems COMPOSE
     C01  Proofs.ForceField.assign_hit_exact / assign_miss_exact / assign_partition
     C02  Proofs.States.set_state_spec (what name set_state gives a descriptor)
     C07  Proofs.Ingest.ingest_complete
     C08  Proofs.PqrFormat.fixed_file_roundtrip
     E2E  Proofs.CleanRun.quiet_atoms / chunks_default (set_termini quiet; default-layout chunks)
   Proved here: the inversion of the composed run, the order lemma of the assignment
   loop (hits / misses are the atoms with / without an entry, in order) and the
   adapters between the string-level residues and C01's interned residues. *)
From Coq Require Import String List ZArith PArith Bool Permutation.
From PV Require Import Lib.Strings Lib.Decimal Model.PdbRead Model.Group Model.PdbSpec
  Proofs.Ingest Model.CleanRun Proofs.CleanRun Model.AssignRun.
From PV Require Model.PqrFormat Proofs.PqrFormat Model.ForceField Proofs.ForceField Model.States Proofs.States.
From PV Require Generated.E2ENames Generated.FF_AMBER.
Import ListNotations.
Local Open Scope string_scope.
Local Open Scope list_scope.

Module PFF := PV.Proofs.ForceField.
Module PST := PV.Proofs.States.

Definition hitb (m : FF.ffmap) (k : FF.id) (an : atomrec * FF.id) : bool :=
  match FF.lookup m k (snd an) with Some _ => true | None => false end.

(* the atoms of a residue list with / without an entry, in order *)
Definition hit_atoms (m : FF.ffmap) (rs : list (@FF.res atomrec)) : list atomrec :=
  flat_map (fun r => map fst (filter (hitb m (fst r)) (snd r))) rs.
Definition miss_atoms (m : FF.ffmap) (rs : list (@FF.res atomrec)) : list atomrec :=
  flat_map (fun r => map fst (filter (fun an => negb (hitb m (fst r) an)) (snd r))) rs.

Lemma assign_res_order m (r : @FF.res atomrec) :
  map fst (fst (FF.assign_res m r)) = map fst (filter (hitb m (fst r)) (snd r)) /\
  snd (FF.assign_res m r) = map fst (filter (fun an => negb (hitb m (fst r) an)) (snd r)).
Proof.
  destruct r as [k l]. unfold FF.assign_res, hitb. cbn [fst snd].
  induction l as [|an l [IH1 IH2]]; [split; reflexivity|].
  cbn [fold_right filter]. destruct (FF.lookup m k (snd an)); cbn [fst snd negb map];
    rewrite IH1, IH2; split; reflexivity.
Qed.

Lemma assign_order m (rs : list (@FF.res atomrec)) :
  map fst (fst (FF.assign m rs)) = hit_atoms m rs /\ snd (FF.assign m rs) = miss_atoms m rs.
Proof.
  induction rs as [|r rs [IH1 IH2]]; [split; reflexivity|].
  unfold FF.assign. cbn [fold_right]. fold (FF.assign m rs). cbn [fst snd hit_atoms miss_atoms flat_map].
  destruct (assign_res_order m r) as [E1 E2]. rewrite map_app, E1, E2, IH1, IH2. split; reflexivity.
Qed.

Section Compose.
  Variable fok : string -> bool.
  Variable tab : deftab.
  Variable ct : ctab.
  Variable pt : ptab.
  Variable near : atomrec -> atomrec -> bool.
  Variable r3 : string -> MP.fx.
  Variable names : list (string * positive).
  Variable unk : positive.
  Variable m : FF.ffmap.
  Variable rn : rnd.

  Notation run := (assign_only_run fok tab ct pt near r3 names unk m rn).
  Notation named := (named_residues fok tab ct pt near).
  Notation ffr := (ff_residues names unk).

  Lemma run_ok_inv dropw keep ws lines chunks missed :
    run dropw keep ws lines = AOk chunks missed ->
    exists ns,
      named dropw lines = inr ns /\
      chunks = MP.written_chunks ws false (MP.print_atoms keep (map (conv_hit rn r3) (fst (FF.assign m (ffr ns))))) /\
      missed = snd (FF.assign m (ffr ns)).
  Proof.
    unfold assign_only_run. destruct (named dropw lines) as [e|ns]; [discriminate|].
    destruct (fst (FF.assign m (ffr ns))) as [|h hs] eqn:Eh; [discriminate|].
    destruct (ST.guard_raises (map (res_sum m) (ffr ns))); [discriminate|].
    intros H. injection H as H1 H2. exists ns. rewrite Eh.
    split; [reflexivity|]. split; [exact (eq_sym H1) | exact (eq_sym H2)].
  Qed.

  (* a lookup for an atom of an interned residue is the lookup under the ids of the
     state name and the atom name of a named string-level residue *)
  Lemma ffr_lookup ns (r : @FF.res atomrec) a n o :
    In r (ffr ns) -> In (a, n) (snd r) -> FF.lookup m (fst r) n = o ->
    exists t fn, In (t, fn) ns /\ In a (r_atoms (t_r t)) /\
      FF.lookup m (sid names unk fn) (sid names unk (a_name a)) = o.
  Proof.
    unfold ff_residues. intros Hr Ha Hl. apply in_map_iff in Hr as [[t fn] [<- Hin]].
    unfold ff_res in Ha, Hl. cbn [fst snd] in Ha, Hl. apply in_map_iff in Ha as [a' [[= -> <-] Ha']].
    exists t, fn. split; [exact Hin|]. split; [exact Ha' | exact Hl].
  Qed.

  (* every written line is an atom with an entry, and carries that entry (C01 + C08) *)
  Theorem assign_written_exact dropw keep lines chunks missed :
    run dropw keep false lines = AOk chunks missed ->
    exists ns hits,
      named dropw lines = inr ns /\ hits = fst (FF.assign m (ffr ns)) /\
      chunks = map MP.item_text (MP.print_items keep (map (conv_hit rn r3) hits)) /\
      (forall a e, In (a, e) hits ->
         exists t fn, In (t, fn) ns /\ In a (r_atoms (t_r t)) /\
           FF.lookup m (sid names unk fn) (sid names unk (a_name a)) = Some e) /\
      (PP.all_ok (MP.fixed_ok keep) 0 (map (conv_hit rn r3) hits) ->
         map MP.read_fixed (PP.atom_lines (MP.print_items keep (map (conv_hit rn r3) hits))) =
         map (MP.expected_fixed keep) (PP.renumbered 0 (map (conv_hit rn r3) hits))).
  Proof.
    intros H. destruct (run_ok_inv _ _ _ _ _ _ H) as [ns [Hn [Hc _]]].
    exists ns. eexists. split; [exact Hn|]. split; [reflexivity|]. split; [|split].
    - rewrite Hc. unfold MP.print_atoms. apply chunks_default.
    - intros a e Hin. destruct (PFF.assign_hit_exact m (ffr ns) a e Hin) as [r [n [Hr [Ha Hl]]]].
      exact (ffr_lookup ns r a n _ Hr Ha Hl).
    - intros Hok. apply PP.fixed_file_roundtrip. exact Hok.
  Qed.

  (* what a written line reads back to: the rendering of the entry *)
  Lemma expected_charge keep n h :
    MP.f_charge (MP.expected_fixed keep (MP.with_serial n (conv_hit rn r3 h))) =
      Some (MP.pf_of 4 (q4_charge rn (snd h))) /\
    MP.f_radius (MP.expected_fixed keep (MP.with_serial n (conv_hit rn r3 h))) =
      Some (MP.pf_of 4 (q4 rn (FF.e_r (snd h)))).
  Proof. split; reflexivity. Qed.

  (* an atom is reported missing only when the map has no entry for it *)
  Theorem assign_missed_exact dropw keep ws lines chunks missed :
    run dropw keep ws lines = AOk chunks missed ->
    exists ns, named dropw lines = inr ns /\
      forall a, In a missed ->
        exists t fn, In (t, fn) ns /\ In a (r_atoms (t_r t)) /\
          FF.lookup m (sid names unk fn) (sid names unk (a_name a)) = None.
  Proof.
    intros H. destruct (run_ok_inv _ _ _ _ _ _ H) as [ns [Hn [_ Hm]]].
    exists ns. split; [exact Hn|]. intros a Ha. rewrite Hm in Ha.
    destruct (PFF.assign_miss_exact m (ffr ns) a Ha) as [r [n [Hr [Hi Hl]]]].
    exact (ffr_lookup ns r a n _ Hr Hi Hl).
  Qed.

  Definition atoms_of_named (ns : list (tres * string)) : list atomrec :=
    flat_map (fun tn => r_atoms (t_r (fst tn))) ns.

  Lemma all_atoms_ffr ns : PFF.all_atoms (ffr ns) = atoms_of_named ns.
  Proof.
    unfold PFF.all_atoms, ff_residues, atoms_of_named. induction ns as [|[t fn] ns IH]; [reflexivity|].
    cbn [map flat_map fst snd]. rewrite IH. f_equal. unfold ff_res. cbn [snd].
    rewrite map_map. cbn [fst]. apply map_id.
  Qed.

  (* written ++ missing = the atoms after set_termini: none lost, none twice; and each
     list is in the order of the atoms (hits / misses filtered in order) *)
  Theorem assign_partition_order dropw keep ws lines chunks missed :
    run dropw keep ws lines = AOk chunks missed ->
    exists ns, named dropw lines = inr ns /\
      Permutation (map fst (fst (FF.assign m (ffr ns))) ++ missed) (atoms_of_named ns) /\
      map fst (fst (FF.assign m (ffr ns))) = hit_atoms m (ffr ns) /\
      missed = miss_atoms m (ffr ns).
  Proof.
    intros H. destruct (run_ok_inv _ _ _ _ _ _ H) as [ns [Hn [_ Hm]]].
    exists ns. split; [exact Hn|]. destruct (assign_order m (ffr ns)) as [O1 O2].
    split; [|split; [exact O1 | rewrite Hm; exact O2]].
    rewrite Hm, <- all_atoms_ffr. apply PFF.assign_partition.
  Qed.

  (* the name an amino-acid residue is looked up under is C02's set_state on the
     descriptor of the residue, i.e. prefix(terminus) x base(side-chain state) *)
  Theorem names_are_C02 t n :
    t_kind t = KAmino -> state_name ct t = SName n ->
    exists cn c b d sb,
      lookup (r_name (t_r t)) ct = Some cn /\ class_of_str cn = Some c /\
      base_of_str (r_name (t_r t)) = Some b /\ d = adesc_of c b t /\
      PST.spec_base d = Some sb /\ n = ST.show_sname (PST.spec_prefix d, sb).
  Proof.
    intros Hk. unfold state_name. rewrite Hk.
    destruct (lookup (r_name (t_r t)) ct) as [cn|]; [|discriminate].
    destruct (class_of_str cn) as [c|] eqn:Ec; [|discriminate].
    destruct (base_of_str (r_name (t_r t))) as [b|] eqn:Eb; [|discriminate].
    rewrite (PST.set_state_spec (adesc_of c b t)).
    destruct (PST.spec_base (adesc_of c b t)) as [sb|] eqn:Es; [|discriminate].
    intros H. injection H as H. exists cn, c, b, (adesc_of c b t), sb. repeat split; auto.
  Qed.

  (* names_of keeps the residues *)
  Lemma names_of_fst l ns : names_of ct l = inr ns -> map fst ns = l.
  Proof.
    revert ns; induction l as [|t l IH]; intros ns; simpl; [intros H; injection H as <-; reflexivity|].
    destruct (state_name ct t); try discriminate.
    destruct (names_of ct l) as [e|ns']; [discriminate|]. intros H. injection H as <-.
    cbn [map fst]. rewrite (IH ns' eq_refl). reflexivity.
  Qed.

  Lemma atoms_of_named_map ns : atoms_of_named ns = all_atoms (map t_r (map fst ns)).
  Proof. unfold atoms_of_named, all_atoms. rewrite !map_map. apply flat_map_concat_map. Qed.

  (* the run assigns to the atoms the --clean run prints *)
  Lemma named_atoms dropw lines ns :
    named dropw lines = inr ns ->
    clean_atoms fok tab pt near dropw lines = Some (atoms_of_named ns).
  Proof.
    unfold named_residues, clean_atoms, set_termini.
    destruct (ingest fok tab dropw lines) as [rs|]; [|discriminate].
    destruct (set_termini_res tab pt near rs) as [trs|]; [|discriminate].
    destruct (names_of ct trs) as [e|ns'] eqn:En; [destruct e; discriminate|].
    intros [= <-]. cbn [option_map]. rewrite atoms_of_named_map, (names_of_fst _ _ En). reflexivity.
  Qed.

  (* with C07's guard and a quiet set_termini: every coordinate record C07's column
     read selects is either written with parameters or reported missing, exactly once *)
  Theorem assign_faithful_partial keep ws lines chunks missed :
    guard fok tab lines = true ->
    (forall rs, ingest fok tab false lines = Done rs -> termini_quiet tab pt near rs = true) ->
    run false keep ws lines = AOk chunks missed ->
    exists ns, named false lines = inr ns /\
      Permutation (map a_src (map fst (fst (FF.assign m (ffr ns))) ++ missed))
                  (map strip (cols_read lines)).
  Proof.
    intros Hg Hq H. destruct (assign_partition_order _ _ _ _ _ _ H) as [ns [Hn [P _]]].
    exists ns. split; [exact Hn|].
    destruct (ingest_complete fok tab lines Hg) as [rs [Hi Pc]].
    pose proof (named_atoms _ _ _ Hn) as Ha. unfold clean_atoms in Ha.
    rewrite Hi, (quiet_atoms _ _ _ _ (Hq rs Hi)) in Ha. injection Ha as Ha.
    eapply Permutation_trans; [apply Permutation_map; exact P|]. rewrite <- Ha. exact Pc.
  Qed.
End Compose.

Local Open Scope string_scope.

Definition xtab : deftab :=
  [("ALA", (KAmino, [("HN", "H")])); ("SER", (KAmino, [])); ("HIS", (KAmino, []));
   ("HOH", (KWater, [("OW", "O")]))].
Definition xct : ctab := [("ALA", "ALA"); ("SER", "SER"); ("HIS", "HIS"); ("HOH", "WAT")].
Definition xrn : rnd := mkRnd [(1155000, false)%Z] [].

(* pdb2pqr's own hydrogenated SER-HIS-ALA (HID), a ligand without parameters, a water *)
Definition ex_assign : list string :=
  [ "ATOM      1  N   SER A   1       1.201   0.847   0.000" ++ nl;
    "ATOM      2  CA  SER A   1       0.000   0.000   0.000" ++ nl;
    "ATOM      3  C   SER A   1      -1.250   0.881   0.000" ++ nl;
    "ATOM      4  O   SER A   1      -1.377   1.807   0.815" ++ nl;
    "ATOM      5  CB  SER A   1       0.014  -0.971   1.174" ++ nl;
    "ATOM      6  OG  SER A   1       0.056  -0.296   2.418" ++ nl;
    "ATOM      7  H   SER A   1       2.019   0.272   0.000" ++ nl;
    "ATOM      8  HA  SER A   1       0.000  -0.536  -0.844" ++ nl;
    "ATOM      9  HB2 SER A   1      -0.812  -1.533   1.139" ++ nl;
    "ATOM     10  HB3 SER A   1       0.820  -1.558   1.098" ++ nl;
    "ATOM     11  H2  SER A   1       1.205   1.426  -0.816" ++ nl;
    "ATOM     12  H3  SER A   1       1.205   1.426   0.816" ++ nl;
    "ATOM     13  HG  SER A   1       0.993  -0.007   2.610" ++ nl;
    "ATOM     14  N   HIS A   2      -2.177   0.599  -0.911" ++ nl;
    "ATOM     15  CA  HIS A   2      -3.424   1.371  -1.015" ++ nl;
    "ATOM     16  C   HIS A   2      -4.621   0.445  -0.799" ++ nl;
    "ATOM     17  O   HIS A   2      -4.722  -0.622  -1.423" ++ nl;
    "ATOM     18  CB  HIS A   2      -3.580   2.088  -2.379" ++ nl;
    "ATOM     19  CG  HIS A   2      -2.474   3.062  -2.657" ++ nl;
    "ATOM     20  H   HIS A   2      -1.951  -0.200  -1.534" ++ nl;
    "ATOM     21  HA  HIS A   2      -3.427   2.064  -0.294" ++ nl;
    "ATOM     22  HB2 HIS A   2      -3.589   1.398  -3.103" ++ nl;
    "ATOM     23  HB3 HIS A   2      -4.450   2.583  -2.381" ++ nl;
    "ATOM     24  ND1 HIS A   2      -1.306   2.739  -3.302" ++ nl;
    "ATOM     25  CD2 HIS A   2      -2.440   4.403  -2.476" ++ nl;
    "ATOM     26  CE1 HIS A   2      -0.603   3.837  -3.504" ++ nl;
    "ATOM     27  NE2 HIS A   2      -1.267   4.864  -3.015" ++ nl;
    "ATOM     28  HD1 HIS A   2      -1.032   1.816  -3.576" ++ nl;
    "ATOM     29  HD2 HIS A   2      -3.142   4.957  -2.030" ++ nl;
    "ATOM     30  HE1 HIS A   2       0.289   3.882  -3.954" ++ nl;
    "ATOM     31  N   ALA A   3      -5.532   0.845   0.084" ++ nl;
    "ATOM     32  CA  ALA A   3      -6.728   0.045   0.382" ++ nl;
    "ATOM     33  C   ALA A   3      -7.983   0.855   0.051" ++ nl;
    "ATOM     34  O   ALA A   3      -8.123   2.012   0.472" ++ nl;
    "ATOM     35  CB  ALA A   3      -6.717  -0.379   1.845" ++ nl;
    "ATOM     36  OXT ALA A   3      -8.848   0.296  -0.657" ++ nl;
    "ATOM     37  H   ALA A   3      -5.331   1.756   0.539" ++ nl;
    "ATOM     38  HA  ALA A   3      -6.716  -0.776  -0.190" ++ nl;
    "ATOM     39  HB1 ALA A   3      -5.906  -0.935   2.025" ++ nl;
    "ATOM     40  HB2 ALA A   3      -6.700   0.433   2.428" ++ nl;
    "ATOM     41  HB3 ALA A   3      -7.538  -0.913   2.044" ++ nl;
    "TER" ++ nl;
    "HETATM  900  C1  LIG A 500      10.000   5.000   1.000" ++ nl;
    "HETATM  901  O1  LIG A 500      11.000   5.000   1.000" ++ nl;
    "HETATM  950  O   HOH A 600      40.000   5.000   1.000" ++ nl;
    "HETATM  951  H1  HOH A 600      40.900   5.000   1.000" ++ nl;
    "HETATM  952  H2  HOH A 600      39.700   5.900   1.000" ++ nl;
    "END" ++ nl ].

Definition ex_assign_out : string :=
  "ATOM      1  N   SER A   1       1.201   0.847   0.000  0.1849 1.8240" ++ nl ++
  "ATOM      2  CA  SER A   1       0.000   0.000   0.000  0.0567 1.9080" ++ nl ++
  "ATOM      3  C   SER A   1      -1.250   0.881   0.000  0.6163 1.9080" ++ nl ++
  "ATOM      4  O   SER A   1      -1.377   1.807   0.815 -0.5722 1.6612" ++ nl ++
  "ATOM      5  CB  SER A   1       0.014  -0.971   1.174  0.2596 1.9080" ++ nl ++
  "ATOM      6  OG  SER A   1       0.056  -0.296   2.418 -0.6714 1.7210" ++ nl ++
  "ATOM      7  H   SER A   1       2.019   0.272   0.000  0.1898 0.6000" ++ nl ++
  "ATOM      8  HA  SER A   1       0.000  -0.536  -0.844  0.0782 1.1000" ++ nl ++
  "ATOM      9  HB2 SER A   1      -0.812  -1.533   1.139  0.0273 1.3870" ++ nl ++
  "ATOM     10  HB3 SER A   1       0.820  -1.558   1.098  0.0273 1.3870" ++ nl ++
  "ATOM     11  H2  SER A   1       1.205   1.426  -0.816  0.1898 0.6000" ++ nl ++
  "ATOM     12  H3  SER A   1       1.205   1.426   0.816  0.1898 0.6000" ++ nl ++
  "ATOM     13  HG  SER A   1       0.993  -0.007   2.610  0.4239 0.0000" ++ nl ++
  "ATOM     14  N   HIS A   2      -2.177   0.599  -0.911 -0.4157 1.8240" ++ nl ++
  "ATOM     15  CA  HIS A   2      -3.424   1.371  -1.015  0.0188 1.9080" ++ nl ++
  "ATOM     16  C   HIS A   2      -4.621   0.445  -0.799  0.5973 1.9080" ++ nl ++
  "ATOM     17  O   HIS A   2      -4.722  -0.622  -1.423 -0.5679 1.6612" ++ nl ++
  "ATOM     18  CB  HIS A   2      -3.580   2.088  -2.379 -0.0462 1.9080" ++ nl ++
  "ATOM     19  CG  HIS A   2      -2.474   3.062  -2.657 -0.0266 1.9080" ++ nl ++
  "ATOM     20  H   HIS A   2      -1.951  -0.200  -1.534  0.2719 0.6000" ++ nl ++
  "ATOM     21  HA  HIS A   2      -3.427   2.064  -0.294  0.0881 1.3870" ++ nl ++
  "ATOM     22  HB2 HIS A   2      -3.589   1.398  -3.103  0.0402 1.4870" ++ nl ++
  "ATOM     23  HB3 HIS A   2      -4.450   2.583  -2.381  0.0402 1.4870" ++ nl ++
  "ATOM     24  ND1 HIS A   2      -1.306   2.739  -3.302 -0.3811 1.8240" ++ nl ++
  "ATOM     25  CD2 HIS A   2      -2.440   4.403  -2.476  0.1292 1.9080" ++ nl ++
  "ATOM     26  CE1 HIS A   2      -0.603   3.837  -3.504  0.2057 1.9080" ++ nl ++
  "ATOM     27  NE2 HIS A   2      -1.267   4.864  -3.015 -0.5727 1.8240" ++ nl ++
  "ATOM     28  HD1 HIS A   2      -1.032   1.816  -3.576  0.3649 0.6000" ++ nl ++
  "ATOM     29  HD2 HIS A   2      -3.142   4.957  -2.030  0.1147 1.4090" ++ nl ++
  "ATOM     30  HE1 HIS A   2       0.289   3.882  -3.954  0.1392 1.3590" ++ nl ++
  "ATOM     31  N   ALA A   3      -5.532   0.845   0.084 -0.3821 1.8240" ++ nl ++
  "ATOM     32  CA  ALA A   3      -6.728   0.045   0.382 -0.1747 1.9080" ++ nl ++
  "ATOM     33  C   ALA A   3      -7.983   0.855   0.051  0.7731 1.9080" ++ nl ++
  "ATOM     34  O   ALA A   3      -8.123   2.012   0.472 -0.8055 1.6612" ++ nl ++
  "ATOM     35  CB  ALA A   3      -6.717  -0.379   1.845 -0.2093 1.9080" ++ nl ++
  "ATOM     36  OXT ALA A   3      -8.848   0.296  -0.657 -0.8055 1.6612" ++ nl ++
  "ATOM     37  H   ALA A   3      -5.331   1.756   0.539  0.2681 0.6000" ++ nl ++
  "ATOM     38  HA  ALA A   3      -6.716  -0.776  -0.190  0.1067 1.3870" ++ nl ++
  "ATOM     39  HB1 ALA A   3      -5.906  -0.935   2.025  0.0764 1.4870" ++ nl ++
  "ATOM     40  HB2 ALA A   3      -6.700   0.433   2.428  0.0764 1.4870" ++ nl ++
  "ATOM     41  HB3 ALA A   3      -7.538  -0.913   2.044  0.0764 1.4870" ++ nl ++
  "HETATM   42  O   HOH A 600      40.000   5.000   1.000 -0.8340 1.6612" ++ nl ++
  "HETATM   43  H1  HOH A 600      40.900   5.000   1.000  0.4170 0.0000" ++ nl ++
  "HETATM   44  H2  HOH A 600      39.700   5.900   1.000  0.4170 0.0000" ++ nl ++
  "TER" ++ nl ++
  "END".

Definition ex_run := assign_only_run py_float_ok xtab xct ept near_dec er3 E2ENames.names E2ENames.unk
                       FF_AMBER.built xrn false true false ex_assign.

Lemma ex_assign_ok :
  guard py_float_ok xtab ex_assign = true /\
  (exists chunks missed, ex_run = AOk chunks missed /\
     String.concat "" chunks = ex_assign_out /\
     map a_name missed = ["C1"; "O1"] /\ List.length chunks = 45) /\
  match named_residues py_float_ok xtab xct ept near_dec false ex_assign with
  | inr ns => map snd ns = ["NSER"; "HID"; "CALA"; "LIG"; "WAT"]
  | inl _ => False
  end.
Proof.
  split; [vm_compute; reflexivity|]. split.
  - unfold ex_run. rewrite FF_AMBER.built_eq.
    eexists. eexists. split; [vm_compute; reflexivity|]. split; [vm_compute; reflexivity|].
    split; reflexivity.
  - vm_compute. reflexivity.
Qed.
