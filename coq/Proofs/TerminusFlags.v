(* The terminus flags reach the ranks of set_reference_distance only through
   three atom names: HO is ranked by the C-terminus flag, H2 and H3 by the
   N-terminus flag.  A residue that has none of them gets the same ranks for
   every flag combination, so a table fact "for all four flag combinations"
   is evaluated only for the combinations the residue can tell apart. *)
From Coq Require Import List PArith Bool.
From PV Require Import Lib.Lists Model.ForceField Model.Topology Model.Moves Model.Placement.
From PV Require Import Generated.Topology Generated.MovesTable.
Import ListNotations.

Definition has_HO (nm : names) (g : graph) : bool := mem (nm_HO nm) (nodes g).
Definition has_H23 (nm : names) (g : graph) : bool := mem (nm_H2 nm) (nodes g) || mem (nm_H3 nm) (nodes g).

Lemma mem_false_neq : forall a b l, mem a l = false -> In b l -> Pos.eqb b a = false.
Proof.
  intros a b l H Hb. destruct (Pos.eqb b a) eqn:E; [|reflexivity].
  apply Pos.eqb_eq in E. subst b. unfold mem in H.
  rewrite (proj2 (existsb_eqb_In Pos.eqb Pos.eqb_eq a l) Hb) in H. discriminate.
Qed.

Lemma ranks_fold_ext : forall (r1 r2 : id -> option nat) (l : list id),
  (forall a, In a l -> r1 a = r2 a) ->
  fold_right (fun a acc => match acc, r1 a with Some l, Some r => Some ((a, r) :: l) | _, _ => None end) (Some []) l
  = fold_right (fun a acc => match acc, r2 a with Some l, Some r => Some ((a, r) :: l) | _, _ => None end) (Some []) l.
Proof.
  intros r1 r2 l H. induction l as [|a l IH]; [reflexivity|]. cbn [fold_right].
  rewrite IH, (H a (or_introl eq_refl)); [reflexivity|]. intros b Hb. apply H. right. exact Hb.
Qed.

Lemma ranks_no_HO : forall nm nt ct g, has_HO nm g = false -> ranks nm nt ct g = ranks nm nt false g.
Proof.
  intros nm nt ct g H. unfold ranks. cbv zeta. apply ranks_fold_ext. intros a Ha.
  unfold rank1. rewrite (mem_false_neq _ _ _ H Ha), andb_false_r. reflexivity.
Qed.

Lemma ranks_no_H23 : forall nm nt ct g, has_H23 nm g = false -> ranks nm nt ct g = ranks nm false ct g.
Proof.
  intros nm nt ct g H. apply orb_false_iff in H as [H2 H3]. unfold ranks. cbv zeta.
  apply ranks_fold_ext. intros a Ha.
  unfold rank1. rewrite (mem_false_neq _ _ _ H2 Ha), (mem_false_neq _ _ _ H3 Ha), andb_false_r. reflexivity.
Qed.

Definition flag_values (sensitive : bool) : list bool := if sensitive then [false; true] else [false].

Definition for_flags (n c : bool) (P : bool -> bool -> bool) : bool :=
  forallb (fun nt => forallb (fun ct => P nt ct) (flag_values c)) (flag_values n).

Definition flag_pairs : list (bool * bool) := [(false, false); (true, false); (false, true); (true, true)].

Lemma for_flags_all : forall (n c : bool) (P : bool -> bool -> bool),
  (n = false -> forall ct, P true ct = P false ct) ->
  (c = false -> forall nt, P nt true = P nt false) ->
  forallb (fun f => P (fst f) (snd f)) flag_pairs = for_flags n c P.
Proof.
  intros n c P Hn Hc. unfold for_flags, flag_values, flag_pairs.
  destruct n, c; cbn [forallb fst snd];
    try rewrite (Hn eq_refl true), (Hn eq_refl false); try rewrite !(Hc eq_refl);
    destruct (P false false), (P false true), (P true false), (P true true); reflexivity.
Qed.

Lemma for_flags_and : forall (n c : bool) (P : bool -> bool -> bool),
  (n = false -> forall ct, P true ct = P false ct) ->
  (c = false -> forall nt, P nt true = P nt false) ->
  P false false && P true false && P false true && P true true = for_flags n c P.
Proof.
  intros n c P Hn Hc. rewrite <- (for_flags_all n c P Hn Hc). cbn [forallb flag_pairs fst snd].
  rewrite andb_true_r, !andb_assoc. reflexivity.
Qed.

Definition ok_flags (keep : id -> bool) (p : tres * (id * id * id * id)) : bool :=
  let g := tgraph (fst p) in
  for_flags (has_H23 nm g) (has_HO nm g) (fun nt ct => ok_pair keep nt ct p).

Lemma ok_all_flags_eq : forall keep p, ok_all_flags keep p = ok_flags keep p.
Proof.
  intros keep p. unfold ok_all_flags, ok_flags. cbv zeta.
  apply (for_flags_and _ _ (fun nt ct => ok_pair keep nt ct p));
    intros H b; unfold ok_pair, dihedral_ok; destruct (snd p) as [[[d1 d2] d3] d4].
  - rewrite (ranks_no_H23 nm true b _ H). reflexivity.
  - rewrite (ranks_no_HO nm b true _ H). reflexivity.
Qed.

Definition exact_flags (p : tres * (id * id * id * id)) : bool :=
  let g := tgraph (fst p) in
  for_flags (has_H23 nm g) (has_HO nm g) (fun nt ct => exact_dihedral hyd nm nt ct g (snd p)).

Lemma exact_flags_all : forall p, exact_flags p = true ->
  forall nt ct : bool, exact_dihedral hyd nm nt ct (tgraph (fst p)) (snd p) = true.
Proof.
  intros p H nt ct. unfold exact_flags in H. cbv zeta in H.
  rewrite <- (for_flags_and _ _ (fun nt ct => exact_dihedral hyd nm nt ct (tgraph (fst p)) (snd p))) in H.
  - rewrite !andb_true_iff in H. destruct H as [[[H1 H2] H3] H4]. destruct nt, ct; assumption.
  - intros Hn b. unfold exact_dihedral. destruct (snd p) as [[[d1 d2] d3] d4].
    rewrite (ranks_no_H23 nm true b _ Hn). reflexivity.
  - intros Hc b. unfold exact_dihedral. destruct (snd p) as [[[d1 d2] d3] d4].
    rewrite (ranks_no_HO nm b true _ Hc). reflexivity.
Qed.

(* storage orders: the ranks of the reversed and of the sorted graph enter too *)
Definition order_flags (g : graph) (c : id) : bool :=
  for_flags (has_H23 nm g || has_H23 nm (rev_graph g) || has_H23 nm (sort_graph g))
            (has_HO nm g || has_HO nm (rev_graph g) || has_HO nm (sort_graph g))
            (fun nt ct => same_moved nm nt ct g (rev_graph g) c && same_moved nm nt ct g (sort_graph g) c).

Lemma order_insensitive_eq : forall g c, order_insensitive nm g c = order_flags g c.
Proof.
  intros g c. unfold order_insensitive, order_flags.
  apply (for_flags_all _ _ (fun nt ct => same_moved nm nt ct g (rev_graph g) c && same_moved nm nt ct g (sort_graph g) c));
    intros H b; rewrite !orb_false_iff in H; destruct H as [[H1 H2] H3]; unfold same_moved.
  - rewrite (ranks_no_H23 nm true b g H1), (ranks_no_H23 nm true b _ H2), (ranks_no_H23 nm true b _ H3). reflexivity.
  - rewrite (ranks_no_HO nm b true g H1), (ranks_no_HO nm b true _ H2), (ranks_no_HO nm b true _ H3). reflexivity.
Qed.
