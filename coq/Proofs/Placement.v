(* Proofs for C05 (atoms added by pdb2pqr have template-consistent bonded
   geometry), over the real-number instance of Model/Quatfit.v and the
   generated tables.  Reuses Proofs/Quatfit.v (C15) and Proofs/Moves.v (C04). *)
From Coq Require Import Reals List ZArith PArith Bool String Lra Lia Nsatz Psatz.
From PV Require Import Model.ForceField Model.Topology Model.Moves Model.Quatfit Model.Placement.
From PV Require Import Lib.Lists Proofs.Moves Proofs.Quatfit Proofs.TerminusFlags.
From PV Require Import Generated.Topology Generated.MovesTable Generated.C05Table.
Import ListNotations.
Local Open Scope R_scope.

Lemma rigid_sub : forall (M : Rmat3) (T x y : Rpt),
  psub RA (rigid M T x) (rigid M T y) = rot1 RA M (psub RA x y).
Proof.
  intros M T x y. unfold rigid. rewrite rot1_sub.
  destruct (rot1 RA M x) as [[a0 a1] a2], (rot1 RA M y) as [[b0 b1] b2], T as [[t0 t1] t2].
  unf. apply pt_eq; ring.
Qed.

Lemma rigid_dist2 : forall (M : Rmat3) (T x y : Rpt), orthonormal_rows M ->
  dist2 (rigid M T x) (rigid M T y) = dist2 x y.
Proof.
  intros M T x y H. unfold dist2. rewrite rigid_sub. apply rot_preserves_dot; exact H.
Qed.

Lemma rigid_angle_dot : forall (M : Rmat3) (T x y z : Rpt), orthonormal_rows M ->
  dot3 RA (psub RA (rigid M T x) (rigid M T y)) (psub RA (rigid M T z) (rigid M T y))
  = dot3 RA (psub RA x y) (psub RA z y).
Proof.
  intros M T x y z H. rewrite !rigid_sub. apply rot_preserves_dot; exact H.
Qed.

(* 3-point (n-point) fit: the placed atom has EXACTLY the template's distance to
   every fitted neighbour (so the template bond length to its parent) and the
   template's angle at every fitted neighbour d towards every other one d'
   (numerator d.d' of the cosine and both side lengths agree) *)
Theorem fit3_exact_geometry : forall (defs : list Rpt) (p : Rquat) (T atom : Rpt),
  qnorm2 RA p = 1 -> noncollinear defs ->
  let image := rigid (q2mat RA p) T in
  let refs := map image defs in
  let defrel := snd (center RA defs) in
  let refrel := snd (center RA refs) in
  eigen_contract defrel refrel (qtrfit_quat RA NROT defrel refrel) ->
  exists X, find_coordinates RA (List.length defs) refs defs atom = Some X /\
    (forall d, dist2 X (image d) = dist2 atom d) /\
    (forall d d', dist2 (image d') (image d) = dist2 d' d /\
                  dot3 RA (psub RA X (image d)) (psub RA (image d') (image d))
                  = dot3 RA (psub RA atom d) (psub RA d' d)).
Proof.
  intros defs p T atom Hp Hnc image refs defrel refrel Hc.
  destruct (fit_exact_image defs p T atom Hp Hnc Hc) as [_ Hfind].
  pose proof (proj1 (q2mat_rotation p Hp)) as Hrows.
  exists (image atom). split; [exact Hfind|]. split.
  - intro d. apply rigid_dist2; exact Hrows.
  - intros d d'. split; [apply rigid_dist2 | apply rigid_angle_dot]; exact Hrows.
Qed.

Lemma dot_polar : forall x a o : Rpt,
  dot3 RA (psub RA x a) (psub RA o a) = (dist2 x a + dist2 o a - dist2 x o) / 2.
Proof.
  intros [[x0 x1] x2] [[a0 a1] a2] [[o0 o1] o2]. unfold dist2. unf. field.
Qed.

(* every optimisation move (set_dihedral_angle, rotate_tetrahedral by any angle,
   the trial rotations of Alcoholic/Water) is rotate_about an axis o -> a through
   the parent a: distance to the parent a, distance to the other axis atom o, and
   therefore the bond angle p - a - o are unchanged, for ALL points and angles *)
Theorem rotation_keeps_parent_geometry : forall (c s : R) (o a p : Rpt),
  dot3 RA (psub RA a o) (psub RA a o) <> 0 -> c * c + s * s = 1 ->
  let p' := rotate_about RA c s o a p in
  dist2 p' a = dist2 p a /\ dist2 p' o = dist2 p o /\
  dot3 RA (psub RA p' a) (psub RA o a) = dot3 RA (psub RA p a) (psub RA o a) /\
  (forall q, dist2 p' (rotate_about RA c s o a q) = dist2 p q).
Proof.
  intros c s o a p Hne Hcs p'.
  destruct (set_dihedral_distances c s o a p p 0 Hne Hcs) as (Ho & Ha & _ & _).
  fold p' in Ho, Ha.
  split; [exact Ha|]. split; [exact Ho|]. split.
  - rewrite !dot_polar. rewrite Ha, Ho. reflexivity.
  - intro q. apply rotate_about_isometry; assumption.
Qed.

Lemma rotate_about_shift : forall (c s : R) (o a h : Rpt),
  dist2 (rotate_about RA c s o a h) h
  = dist2 (rot1 RA (chi_mat RA (normalize RA (psub RA a o)) c s) (psub RA h o)) (psub RA h o).
Proof.
  intros c s o a h. unfold rotate_about.
  generalize (rot1 RA (chi_mat RA (normalize RA (psub RA a o)) c s) (psub RA h o)).
  intros [[u0 u1] u2]. destruct h as [[h0 h1] h2], o as [[o0 o1] o2]. unfold dist2. unf. ring.
Qed.

(* rebuild_tetrahedral: the existing hydrogen h rotated by +-120 degrees about the
   heavy-heavy bond o -> a (a = the parent) keeps its bond length to a and its
   distance to o (bond angle h - a - o), and lands at squared distance 3 rho^2 from
   h, rho = distance of h from the axis; so the new atom never coincides with the
   hydrogen it was copied from unless h lies ON the axis *)
Theorem tetra_120_about : forall (c s : R) (o a h : Rpt),
  dot3 RA (psub RA a o) (psub RA a o) <> 0 -> c = - (1 / 2) -> s * s = 3 / 4 ->
  let h' := rotate_about RA c s o a h in
  let l := normalize RA (psub RA a o) in
  let rho2 := dot3 RA (psub RA h o) (psub RA h o) - dot3 RA l (psub RA h o) * dot3 RA l (psub RA h o) in
  dist2 h' a = dist2 h a /\ dist2 h' o = dist2 h o /\
  dist2 h' h = 3 * rho2 /\ (rho2 > 0 -> h' <> h).
Proof.
  intros c s o a h Hne Hc Hs h' l rho2.
  assert (Hcs : c * c + s * s = 1) by (subst c; lra).
  destruct (rotation_keeps_parent_geometry c s o a h Hne Hcs) as (Ha & Ho & _ & _).
  fold h' in Ha, Ho.
  assert (Hl : dot3 RA l l = 1) by (apply normalize_unit; exact Hne).
  assert (H3 : dist2 h' h = 3 * rho2).
  { unfold h'. rewrite rotate_about_shift. fold l.
    destruct (tetra_120 l (psub RA h o) c s Hl Hc Hs) as (_ & _ & _ & H). exact H. }
  split; [exact Ha|]. split; [exact Ho|]. split; [exact H3|].
  intros Hpos Heq. rewrite Heq in H3.
  rewrite dist2_self in H3. lra.
Qed.

(* rebuild_tetrahedral with two existing hydrogens: the choice between the +120 and the +240
   degree position. *)

Lemma chi_compose : forall (l v : Rpt) (c s : R), dot3 RA l l = 1 ->
  rot1 RA (chi_mat RA l c s) (rot1 RA (chi_mat RA l c s) v)
  = rot1 RA (chi_mat RA l (c * c - s * s) (2 * c * s)) v.
Proof.
  intros l v c s Hl. rewrite (chi_mat_add l c s c s v Hl). f_equal. f_equal. ring.
Qed.

Lemma dist2_padd : forall u w o : Rpt, dist2 (padd RA u o) (padd RA w o) = dist2 u w.
Proof. exact Proofs.Quatfit.dist2_padd. Qed.

Lemma dist2_padd_l : forall u h o : Rpt, dist2 (padd RA u o) h = dist2 u (psub RA h o).
Proof. intros [[u0 u1] u2] [[h0 h1] h2] [[o0 o1] o2]. unfold dist2. unf. ring. Qed.

Lemma dist2_sym : forall u w : Rpt, dist2 u w = dist2 w u.
Proof. intros [[u0 u1] u2] [[w0 w1] w2]. unfold dist2. unf. ring. Qed.

(* the three positions h0, n1 = rot(h0), n2 = rot(n1) are pairwise at squared distance 3 rho^2 *)
Lemma tetra_triangle : forall (c s : R) (o a h0 : Rpt),
  dot3 RA (psub RA a o) (psub RA a o) <> 0 -> c = - (1 / 2) -> s * s = 3 / 4 ->
  let n1 := rotate_about RA c s o a h0 in
  let n2 := rotate_about RA c s o a n1 in
  let l := normalize RA (psub RA a o) in
  let rho2 := dot3 RA (psub RA h0 o) (psub RA h0 o) - dot3 RA l (psub RA h0 o) * dot3 RA l (psub RA h0 o) in
  dist2 n1 h0 = 3 * rho2 /\ dist2 n2 h0 = 3 * rho2 /\ dist2 n2 n1 = 3 * rho2 /\
  dist2 n1 a = dist2 h0 a /\ dist2 n2 a = dist2 h0 a /\ dist2 n1 o = dist2 h0 o /\ dist2 n2 o = dist2 h0 o.
Proof.
  intros c s o a h0 Hne Hc Hs n1 n2 l rho2.
  assert (Hcs : c * c + s * s = 1) by (subst c; lra).
  assert (Hl : dot3 RA l l = 1) by (apply normalize_unit; exact Hne).
  destruct (tetra_120_about c s o a h0 Hne Hc Hs) as (Ha1 & Ho1 & H1 & _).
  fold n1 in Ha1, Ho1, H1. fold l in H1. fold rho2 in H1.
  destruct (tetra_120_about c s o a n1 Hne Hc Hs) as (Ha2 & Ho2 & H21 & _).
  fold n2 in Ha2, Ho2, H21. fold l in H21.
  set (v := psub RA h0 o) in *.
  assert (Hn1 : psub RA n1 o = rot1 RA (chi_mat RA l c s) v).
  { unfold n1, rotate_about. fold l. fold v. apply psub_padd. }
  destruct (tetra_120 l v c s Hl Hc Hs) as (Hvv & Hlv & _ & _).
  rewrite Hn1, Hvv, Hlv in H21. fold rho2 in H21.
  assert (H20 : dist2 n2 h0 = 3 * rho2).
  { unfold n2, rotate_about at 1. fold l. rewrite Hn1. rewrite dist2_padd_l. fold v.
    rewrite chi_compose by assumption.
    assert (Hc2 : c * c - s * s = - (1 / 2)) by (subst c; lra).
    assert (Hs2 : (2 * c * s) * (2 * c * s) = 3 / 4).
    { replace ((2 * c * s) * (2 * c * s)) with (4 * (c * c) * (s * s)) by ring. rewrite Hs. subst c. lra. }
    destruct (tetra_120 l v (c * c - s * s) (2 * c * s) Hl Hc2 Hs2) as (_ & _ & _ & H). exact H. }
  repeat split; try assumption.
  - exact (eq_trans Ha2 Ha1).
  - exact (eq_trans Ho2 Ho1).
Qed.

(* the model's choice (threshold thr, 0.1 A in the code): if the second existing hydrogen
   h1 occupies one of the two images of h0 (the group is 120 degrees apart, either sense)
   and the images are more than thr apart (3 rho^2 > thr^2), the chosen position is at squared
   distance 3 rho^2 from BOTH existing hydrogens - it never coincides with either - and keeps
   the bond length to the parent a and the distance to the axis atom o (bond angle) *)
Theorem tetra3_choice : forall (thr c s : R) (o a h0 h1 : Rpt),
  dot3 RA (psub RA a o) (psub RA a o) <> 0 -> c = - (1 / 2) -> s * s = 3 / 4 ->
  let n1 := rotate_about RA c s o a h0 in
  let n2 := rotate_about RA c s o a n1 in
  let l := normalize RA (psub RA a o) in
  let rho2 := dot3 RA (psub RA h0 o) (psub RA h0 o) - dot3 RA l (psub RA h0 o) * dot3 RA l (psub RA h0 o) in
  0 < thr -> thr * thr < 3 * rho2 -> (h1 = n1 \/ h1 = n2) ->
  let x := rebuild3 RA thr c s o a h0 h1 in
  dist2 x h0 = 3 * rho2 /\ dist2 x h1 = 3 * rho2 /\ x <> h0 /\ x <> h1 /\
  dist2 x a = dist2 h0 a /\ dist2 x o = dist2 h0 o.
Proof.
  intros thr c s o a h0 h1 Hne Hc Hs n1 n2 l rho2 Hthr Hbig Hh1 x.
  destruct (tetra_triangle c s o a h0 Hne Hc Hs) as (T10' & T20' & T21' & A1' & A2' & O1' & O2').
  assert (T10 : dist2 n1 h0 = 3 * rho2) by exact T10'.
  assert (T20 : dist2 n2 h0 = 3 * rho2) by exact T20'.
  assert (T21 : dist2 n2 n1 = 3 * rho2) by exact T21'.
  assert (A1 : dist2 n1 a = dist2 h0 a) by exact A1'.
  assert (A2 : dist2 n2 a = dist2 h0 a) by exact A2'.
  assert (O1 : dist2 n1 o = dist2 h0 o) by exact O1'.
  assert (O2 : dist2 n2 o = dist2 h0 o) by exact O2'.
  clear T10' T20' T21' A1' A2' O1' O2'.
  assert (Hpos : 0 < 3 * rho2) by nra.
  assert (Hx : x = if Rltb thr (sqrt (dist2 h1 n1)) then n1 else n2) by reflexivity.
  unfold Rltb in Hx.
  clearbody x.
  assert (Hne_of : forall p q : Rpt, dist2 p q = 3 * rho2 -> p <> q).
  { intros p q Hd Heq. rewrite Heq, dist2_self in Hd. lra. }
  destruct Hh1 as [Hh1 | Hh1]; rewrite Hh1 in *.
  - (* h1 sits on n1: distance 0, not > thr: n2 is taken *)
    rewrite dist2_self, sqrt_0 in Hx.
    destruct (Rlt_dec thr 0) as [Hlt | _]; [lra|]. rewrite Hx.
    repeat split; try assumption; apply Hne_of; assumption.
  - (* h1 sits on n2: |n2 - n1| = sqrt(3 rho^2) > thr: n1 is taken *)
    rewrite T21 in Hx.
    assert (Hgt : thr < sqrt (3 * rho2)).
    { rewrite <- (sqrt_square thr) at 1 by lra. apply sqrt_lt_1_alt. split; nra. }
    destruct (Rlt_dec thr (sqrt (3 * rho2))) as [_ | Hn]; [|contradiction]. rewrite Hx.
    assert (T12 : dist2 n1 n2 = 3 * rho2) by (rewrite dist2_sym; exact T21).
    repeat split; try assumption; apply Hne_of; assumption.
Qed.

(* The 1 A placement of Optimize.make_atom_with_no_bonds / Water.finalize (water hydrogen or
   lone pair on an oxygen with no bonds). *)
Theorem unit_placement : forall o from_ to_ : Rpt,
  dot3 RA (psub RA to_ from_) (psub RA to_ from_) <> 0 ->
  dist2 (unit_place RA o from_ to_) o = 1.
Proof.
  intros o from_ to_ Hne.
  pose proof (normalize_unit (psub RA to_ from_) Hne) as Hu.
  unfold unit_place, unit_place_with.
  unfold normalize, normalize_with in Hu.
  set (n := norm3 RA (psub RA to_ from_)) in *.
  destruct (psub RA to_ from_) as [[v0 v1] v2]. destruct o as [[o0 o1] o2].
  clearbody n. unfold dist2. unf.
  replace (v0 / n + o0 - o0) with (v0 / n) by ring.
  replace (v1 / n + o1 - o1) with (v1 / n) by ring.
  replace (v2 / n + o2 - o2) with (v2 / n) by ring.
  exact Hu.
Qed.

(* Which template neighbours add_hydrogens / repair_heavy hand to the n-point fit. *)

Local Close Scope R_scope.

Lemma take_present_spec : forall (present : id -> bool) (n : nat) (l : list id),
  take_present present n l = firstn n (filter present l).
Proof.
  intros present n l. revert n. induction l as [|b t IH]; intros n.
  - destruct n; reflexivity.
  - destruct n as [|n']; [reflexivity|]. cbn [take_present filter].
    destruct (present b); cbn [firstn]; [rewrite IH; reflexivity | apply IH].
Qed.

Lemma firstn_In : forall (X : Type) (n : nat) (l : list X) (x : X), In x (firstn n l) -> In x l.
Proof.
  intros X n. induction n as [|n IH]; intros l x H; [destruct H|].
  destruct l as [|a t]; [destruct H|]. cbn [firstn] in H. destruct H as [-> | H]; [left; reflexivity | right; apply IH; exact H].
Qed.

(* whatever the bond graph, the presence predicate and the atom: if a fit is made it uses exactly
   three names, each of them a present atom from get_nearest_bonds, namely the FIRST three present
   ones; hence (corollary below) with an absent peptide pointer the pseudo atom is never among them *)
Theorem fit_neighbours_sound : forall (g : graph) (present : id -> bool) (x : id) (l : list id),
  fit_names g present x = Some l ->
  List.length l = 3%nat /\
  (forall b, In b l -> In b (nearest_bonds g x) /\ present b = true) /\
  l = firstn 3 (filter present (nearest_bonds g x)).
Proof.
  intros g present x l H. unfold fit_names in H.
  destruct (Nat.eqb (List.length (take_present present 3 (nearest_bonds g x))) 3) eqn:E; [|discriminate].
  injection H as <-. apply Nat.eqb_eq in E. split; [exact E|]. split.
  - intros b Hb. rewrite take_present_spec in Hb. apply firstn_In in Hb. apply filter_In in Hb. exact Hb.
  - apply take_present_spec.
Qed.

Corollary fit_skips_absent_pointer : forall (g : graph) (np1 cm1 : id) (has_pn has_pc : bool) (atoms : list id) (x : id) (l : list id),
  fit_names g (present_in np1 cm1 has_pn has_pc atoms) x = Some l ->
  (has_pn = false -> ~ In np1 l) /\ (has_pc = false -> np1 <> cm1 -> ~ In cm1 l).
Proof.
  intros g np1 cm1 has_pn has_pc atoms x l H.
  destruct (fit_neighbours_sound _ _ _ _ H) as (_ & Hs & _).
  split.
  - intros Hf Hin. destruct (Hs _ Hin) as [_ Hp]. unfold present_in in Hp. rewrite Pos.eqb_refl in Hp. congruence.
  - intros Hf Hne Hin. destruct (Hs _ Hin) as [_ Hp]. unfold present_in in Hp.
    destruct (Pos.eqb cm1 np1) eqn:E; [apply Pos.eqb_eq in E; congruence|]. rewrite Pos.eqb_refl in Hp. congruence.
Qed.

(* Obligations on the generated tables Generated/MovesTable.v and Generated/C05Table.v. *)

Definition orphan_pair (nt ct : bool) (p : tres * (id * id * id * id)) : bool :=
  rank_moves_orphan_h hyd nm nt ct (tgraph (fst p)) (snd p).

Lemma all_atom_subtree_table_raw : forallb exact_flags pairs = true.
Proof. vm_compute. reflexivity. Qed.

(* [exact_dihedral] checks the set selected by set_reference_distance + get_moveable_names
   (Model/Moves.v [moveable]) over ALL atoms including hydrogens: it is the component beyond
   the pivot bond (see exact_subtree_meaning) *)
Theorem all_atom_subtree_table : forall p, In p pairs -> forall nt ct : bool,
  exact_dihedral hyd nm nt ct (tgraph (fst p)) (snd p) = true.
Proof.
  intros p Hp. exact (exact_flags_all p (forallb_In _ _ _ p all_atom_subtree_table_raw Hp)).
Qed.

(* what the boolean implies, for ANY graph and selection: a selected hydrogen's
   bonded atoms are all selected or the pivot - hydrogens move only with their
   parents - and the selection is the component beyond the pivot bond *)
Theorem exact_subtree_meaning : forall (hy : list id) (g : graph) (b c : id) (M : list id),
  exact_subtree hy g b c M = true ->
  (forall h, In h M -> In h hy -> forall p, In p (nbrs g h) -> In p M \/ p = c) /\
  (forall a, In a M <-> In a (beyond g b c)) /\ ~ In b M /\ ~ In c M.
Proof.
  intros hy g b c M H. unfold exact_subtree in H. rewrite !andb_true_iff in H.
  destruct H as [[[[Hsame Hb] Hc] Hf] _].
  unfold same_set in Hsame. apply andb_true_iff in Hsame as [S1 S2].
  unfold subset in S1, S2. rewrite forallb_forall in S1, S2.
  assert (Hiff : forall a, In a M <-> In a (beyond g b c)).
  { intro a. split; intro Ha; [apply mem_In, S1 | apply mem_In, S2]; exact Ha. }
  repeat split.
  - intros h Hh Hhy p Hp. unfold hyd_follow in Hf. rewrite forallb_forall in Hf.
    specialize (Hf h Hh). apply orb_true_iff in Hf as [Hf | Hf].
    + apply negb_true_iff in Hf. apply mem_In in Hhy. congruence.
    + rewrite forallb_forall in Hf. specialize (Hf p Hp).
      apply orb_true_iff in Hf as [Hf | Hf]; [left; now apply mem_In | right; now apply Pos.eqb_eq in Hf].
  - apply Hiff.
  - apply Hiff.
  - intro Hin. apply negb_true_iff in Hb. apply Hiff in Hin. apply mem_In in Hin. congruence.
  - intro Hin. apply negb_true_iff in Hc. apply mem_In in Hin. congruence.
Qed.

(* the rank-only selection used before fix a31aee4 moved hydrogens without their
   parent (e.g. ILE chi2 carried the CG2 methyl hydrogens) *)
Theorem rank_selection_refuted :
  existsb (orphan_pair false false) pairs = true /\
  Nat.leb 100 (List.length (filter (fun p => orphan_pair false false p || orphan_pair true false p ||
                                              orphan_pair false true p || orphan_pair true true p) pairs)) = true.
Proof.
  split; [vm_compute; reflexivity|]. apply Nat.leb_le.
  (* the pairs that fail without any terminus flag are already more than 100 *)
  apply (Nat.le_trans _ (List.length (filter (orphan_pair false false) pairs))).
  - apply Nat.leb_le. vm_compute. reflexivity.
  - apply filter_length_le. intros p H. rewrite H. reflexivity.
Qed.

(* template geometry: every atom of every template atoms are placed from has a
   bonded parent in the template, all its template bonds are 0.90 .. 1.90 A long,
   and no other template atom lies within 0.80 A - except the listed ones *)
Definition geom_exceptions : list (id * id) :=
  [(id_of "NPRO"%string, id_of "H3"%string); (id_of "NPRO"%string, id_of "CD"%string)].

(* Two atoms that differ by at least r along one axis are at least r apart: the
   sweep squares coordinates only for the few pairs this does not settle. *)
Definition far_along_axis (r : Z) (p q : zpt) : bool :=
  let '(x1, y1, z1) := p in let '(x2, y2, z2) := q in
  (Z.leb r (Z.abs (x1 - x2)) || Z.leb r (Z.abs (y1 - y2)) || Z.leb r (Z.abs (z1 - z2)))%Z.

Lemma far_along_axis_zd2 : forall r p q, (0 <= r)%Z ->
  far_along_axis r p q = true -> Z.leb (r * r) (zd2 p q) = true.
Proof.
  intros r [[x1 y1] z1] [[x2 y2] z2] Hr H. unfold far_along_axis in H. unfold zd2.
  apply Z.leb_le. rewrite !orb_true_iff, !Z.leb_le in H.
  pose proof (Z.abs_square (x1 - x2)). pose proof (Z.abs_square (y1 - y2)). pose proof (Z.abs_square (z1 - z2)).
  pose proof (Z.abs_nonneg (x1 - x2)). pose proof (Z.abs_nonneg (y1 - y2)). pose proof (Z.abs_nonneg (z1 - z2)).
  nia.
Qed.

Lemma far_along_axis_absorbed : forall r p q (same : bool), (0 <= r)%Z ->
  same || far_along_axis r p q || Z.leb (r * r) (zd2 p q) = same || Z.leb (r * r) (zd2 p q).
Proof.
  intros r p q same Hr. destruct (far_along_axis r p q) eqn:E.
  - rewrite (far_along_axis_zd2 _ _ _ Hr E), !orb_true_r. reflexivity.
  - rewrite orb_false_r. reflexivity.
Qed.

Definition apart_quick (r : Z) (t : gtempl) (x : gatom) : bool :=
  forallb (fun y => Pos.eqb (fst (fst y)) (fst (fst x)) || far_along_axis r (snd (fst x)) (snd (fst y))
                    || Z.leb (r * r) (zd2 (snd (fst x)) (snd (fst y)))) (snd t).

Lemma apart_quick_eq : forall r t x, (0 <= r)%Z -> apart_quick r t x = apart (r * r) t x.
Proof.
  intros r t x Hr. unfold apart_quick, apart. induction (snd t) as [|y l IH]; [reflexivity|].
  cbn [forallb]. rewrite IH, far_along_axis_absorbed by exact Hr. reflexivity.
Qed.

Definition gtempl_ok (t : gtempl) : bool :=
  forallb (fun x => existsb (fun e => Pos.eqb (fst e) (fst t) && Pos.eqb (snd e) (fst (fst x))) geom_exceptions
                    || has_parent t x && bonds_in_range 810000000000 3610000000000 t x && apart_quick 800000 t x) (snd t).

Lemma template_geometry_table_raw : forallb gtempl_ok gtemplates = true.
Proof. vm_compute. reflexivity. Qed.

Theorem template_geometry_table : forall t x, In t gtemplates -> In x (snd t) ->
  ~ In (fst t, fst (fst x)) geom_exceptions ->
  gatom_ok 810000000000 3610000000000 640000000000 t x = true.
Proof.
  intros t x Ht Hx Hex.
  pose proof (proj1 (forallb_forall _ _) template_geometry_table_raw t Ht) as H.
  unfold gtempl_ok in H. rewrite forallb_forall in H. specialize (H x Hx).
  apply orb_true_iff in H as [H | H].
  - exfalso. apply Hex. apply existsb_exists in H as [e [He1 He2]].
    apply andb_true_iff in He2 as [E1 E2]. apply Pos.eqb_eq in E1, E2.
    destruct e as [e1 e2]. cbn [fst snd] in E1, E2. subst. exact He1.
  - rewrite apart_quick_eq in H by discriminate. exact H.
Qed.

Lemma c05_nonvacuous :
  Nat.leb 100 (List.length pairs) = true /\ Nat.leb 100 (List.length gtemplates) = true /\
  existsb (fun p => Nat.leb 3 (List.length (beyond (tgraph (fst p)) (let '(_, b, _, _) := snd p in b)
                                                    (let '(_, _, c, _) := snd p in c)))) pairs = true /\
  existsb (fun t => Pos.eqb (fst t) (id_of "WAT"%string)) gtemplates = true.
Proof. vm_compute. repeat split; reflexivity. Qed.
