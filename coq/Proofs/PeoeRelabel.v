(* C16: Mol2Molecule.assign_parameters under a relabelling of the atoms.

   Proofs/Peoe.v has the three ingredients
     - peoe_equivariant            (the PEOE kernel),
     - formal_charge_equivariant   (Mol2Atom.formal_charge),
     - the radius is looked up by atom type only,
   this file assembles them: permuting the atoms of a molecule permutes the
   (radius, charge) list of assign_parameters exactly (Leibniz equality of the
   rationals) and assign_parameters raises iff it raises on the original. *)
From Coq Require Import String List Arith ZArith QArith Bool Lia.
From PV Require Import Lib.Lists Lib.Strings Model.Peoe Proofs.Peoe.
Import ListNotations.

(* the kernel reads ty and ch below n only *)

Section EquilibrateExt.
  Context {A : Type} (ops : Arith A) {T : Type} (chi : T -> A -> A).
  Context (n : nat) (ty1 ty2 : nat -> T) (bonds : list (nat * nat)) (ch1 ch2 : nat -> A).
  Context (damp scale : A) (ncyc : nat).
  Context (Hok : bonds_ok n bonds = true).
  Context (Hty : forall i, (i < n)%nat -> ty1 i = ty2 i).
  Context (Hch : forall i, (i < n)%nat -> ch1 i = ch2 i).

  Lemma delta_ext q k i :
    (i < n)%nat -> delta ops chi ty1 bonds damp q k i = delta ops chi ty2 bonds damp q k i.
  Proof.
    intros Hi. unfold delta. apply fold_left_ext_in. intros a j Hj.
    apply (nbrs_lt n bonds i j Hok) in Hj. unfold transfer.
    rewrite (Hty i Hi), (Hty j Hj). reflexivity.
  Qed.

  Lemma abs_qges_ext : abs_qges ops n ch1 = abs_qges ops n ch2.
  Proof.
    unfold abs_qges, atoms. apply fold_left_ext_in. intros a i Hi.
    apply in_seq in Hi. rewrite (Hch i) by lia. reflexivity.
  Qed.

  Lemma cycle_ext q k :
    cycle ops chi n ty1 bonds ch1 damp scale ncyc q k =
    cycle ops chi n ty2 bonds ch2 damp scale ncyc q k.
  Proof.
    unfold cycle, atoms. cbv zeta. rewrite abs_qges_ext. apply map_ext_in. intros i Hi.
    apply in_seq in Hi. rewrite (delta_ext _ k i) by lia.
    unfold efc. rewrite (Hch i) by lia. reflexivity.
  Qed.

  Lemma cycles_ext q k c :
    cycles ops chi n ty1 bonds ch1 damp scale ncyc q k c =
    cycles ops chi n ty2 bonds ch2 damp scale ncyc q k c.
  Proof.
    revert q k. induction c as [|c IH]; intros q k; cbn [cycles]; [reflexivity|].
    rewrite cycle_ext. apply IH.
  Qed.

  Lemma equilibrate_ext :
    equilibrate ops chi n ty1 bonds ch1 damp scale ncyc =
    equilibrate ops chi n ty2 bonds ch2 damp scale ncyc.
  Proof. unfold equilibrate. rewrite cycles_ext. reflexivity. Qed.
End EquilibrateExt.

Lemma all_some_None {V} (l : list (option V)) : all_some l = None -> In None l.
Proof.
  induction l as [|[v|] l IH]; cbn [all_some In]; intros H; try discriminate.
  - right. destruct (all_some l); [discriminate | now apply IH].
  - now left.
Qed.

Lemma not_In_None {V} (r : list V) : ~ In None (map Some r).
Proof. intros H. apply in_map_iff in H as [x [Hx _]]. discriminate Hx. Qed.

Section Perm.
  Context (n : nat) (sigma tau : nat -> nat).
  Context (Htau : forall k, (k < n)%nat -> (tau k < n)%nat).
  Context (Hst : forall k, (k < n)%nat -> sigma (tau k) = k).

  (* l' is l with the entry at position i moved to position sigma i *)
  Definition moved {X} (l l' : list X) : Prop :=
    length l = n /\ length l' = n /\
    forall i, (i < n)%nat -> nth_error l' (sigma i) = nth_error l i.

  Lemma moved_back {X} (l l' : list X) k :
    moved l l' -> (k < n)%nat -> nth_error l' k = nth_error l (tau k).
  Proof.
    intros [_ [_ H]] Hk. rewrite <- (H (tau k) (Htau k Hk)), (Hst k Hk). reflexivity.
  Qed.

  Lemma moved_In {X} (l l' : list X) x : moved l l' -> In x l <-> In x l'.
  Proof.
    intros Hm. pose proof Hm as [Hl [Hl' Hrel]]. split; intros Hx; apply In_nth_error in Hx as [i Hi].
    - assert (Hin : (i < n)%nat) by (rewrite <- Hl; apply nth_error_Some; congruence).
      rewrite <- (Hrel i Hin) in Hi. exact (nth_error_In _ _ Hi).
    - assert (Hin : (i < n)%nat) by (rewrite <- Hl'; apply nth_error_Some; congruence).
      rewrite (moved_back _ _ i Hm Hin) in Hi. exact (nth_error_In _ _ Hi).
  Qed.

  Lemma perm_all_some {V} (l l' : list (option V)) :
    moved l l' ->
    match all_some l, all_some l' with
    | Some r, Some r' => moved r r'
    | None, None => True
    | _, _ => False
    end.
  Proof.
    intros Hm. destruct (all_some l) as [r|] eqn:E; destruct (all_some l') as [r'|] eqn:E'.
    - apply all_some_map in E, E'. subst l l'.
      destruct Hm as [Hl [Hl' Hrel]]. rewrite map_length in Hl, Hl'. split; [exact Hl|]. split; [exact Hl'|].
      intros i Hi. specialize (Hrel i Hi). rewrite !nth_error_map in Hrel.
      destruct (nth_error r i), (nth_error r' (sigma i)); cbn [option_map] in Hrel; congruence.
    - apply all_some_map in E. apply all_some_None in E'. subst l.
      exact (not_In_None r (proj2 (moved_In _ _ _ Hm) E')).
    - apply all_some_None in E. apply all_some_map in E'. subst l'.
      exact (not_In_None r' (proj1 (moved_In _ _ _ Hm) E)).
    - exact I.
  Qed.

  Lemma perm_forallb {X} (p : X -> bool) (l l' : list X) :
    moved l l' -> forallb p l' = forallb p l.
  Proof.
    intros Hm. apply eq_iff_eq_true. rewrite !forallb_forall.
    split; intros H x Hx; apply H, (moved_In _ _ x Hm), Hx.
  Qed.

  Lemma moved_map {X Y} (f : X -> Y) (l l' : list X) : moved l l' -> moved (map f l) (map f l').
  Proof.
    intros [Hl [Hl' Hrel]]. split; [|split]; try (rewrite map_length; assumption).
    intros i Hi. rewrite !nth_error_map, (Hrel i Hi). reflexivity.
  Qed.

  Lemma moved_combine {X Y} (a a' : list X) (b b' : list Y) :
    moved a a' -> moved b b' ->
    forall i, (i < n)%nat -> nth_error (combine a' b') (sigma i) = nth_error (combine a b) i.
  Proof.
    intros [_ [_ Ha]] [_ [_ Hb]] i Hi. rewrite !nth_error_combine, (Ha i Hi), (Hb i Hi). reflexivity.
  Qed.
End Perm.

Section Relabel.
  Context (m : mol) (sigma tau : nat -> nat).
  Local Notation n := (m_n m).
  Context (Hsigma : forall i, (i < n)%nat -> (sigma i < n)%nat).
  Context (Htau : forall k, (k < n)%nat -> (tau k < n)%nat).
  Context (Hts : forall i, (i < n)%nat -> tau (sigma i) = i).
  Context (Hst : forall k, (k < n)%nat -> sigma (tau k) = k).
  Context (Hok : mol_ok m = true).

  Local Notation m' := (relabel m sigma tau).

  Lemma relabel_pairs : m_pairs m' = bonds' (m_pairs m) sigma.
  Proof.
    unfold m_pairs, bonds', relabel. cbn [m_bonds]. rewrite !map_map. reflexivity.
  Qed.

  Lemma relabel_ok : mol_ok m' = true.
  Proof.
    unfold mol_ok. rewrite relabel_n, relabel_pairs.
    apply (bonds'_ok n (m_pairs m) sigma Hsigma). exact Hok.
  Qed.

  Lemma moved_types : moved n sigma (m_types m) (m_types m').
  Proof.
    split; [reflexivity|]. split; [exact (relabel_n m sigma tau)|].
    intros i Hi. unfold relabel. cbn [m_types].
    rewrite nth_error_map_seq by (apply Hsigma, Hi). rewrite (Hts i Hi).
    unfold m_ty. symmetry. apply nth_error_nth'. exact Hi.
  Qed.

  Lemma moved_formal :
    moved n sigma (map (formal_charge2 m) (seq 0 n)) (map (formal_charge2 m') (seq 0 (m_n m'))).
  Proof.
    rewrite relabel_n.
    split; [now rewrite map_length, seq_length|]. split; [now rewrite map_length, seq_length|].
    intros i Hi. rewrite !nth_error_map_seq by (try apply Hsigma; exact Hi).
    rewrite (formal_charge_equivariant m sigma tau Hsigma Hts Hok i Hi). reflexivity.
  Qed.

  Lemma moved_equilibrate (fc2 fc2' : list Z) ncyc :
    moved n sigma fc2 fc2' ->
    moved n sigma (equilibrate_code QA m fc2 (damping QA) (scaling QA) ncyc)
                  (equilibrate_code QA m' fc2' (damping QA) (scaling QA) ncyc).
  Proof.
    intros Hfc. unfold equilibrate_code.
    split; [apply equilibrate_length|]. split; [rewrite equilibrate_length; apply relabel_n|].
    intros i Hi. rewrite relabel_n, relabel_pairs.
    rewrite (equilibrate_ext QA (chi_code QA) n (m_ty m') (ty' (m_ty m) tau)
               (bonds' (m_pairs m) sigma)
               (fun k => half QA (nth k fc2' 0%Z))
               (ch' (fun k => half QA (nth k fc2 0%Z)) tau)).
    - apply (peoe_equivariant QA QA_laws (chi_code QA) n (m_ty m) (m_pairs m)
               (fun k => half QA (nth k fc2 0%Z)) (damping QA) (scaling QA) ncyc sigma tau
               Hsigma Htau Hts Hok i Hi).
    - apply (bonds'_ok n (m_pairs m) sigma Hsigma). exact Hok.
    - intros k Hk. unfold ty'. apply relabel_ty, Hk.
    - intros k Hk. unfold ch'. f_equal. apply nth_of_nth_error.
      apply (moved_back n sigma tau Htau Hst _ _ k Hfc Hk).
  Qed.
End Relabel.

Theorem assign_parameters_relabel :
  forall (m : mol) (ncyc : nat) (sigma tau : nat -> nat),
  (forall i, (i < m_n m)%nat -> (sigma i < m_n m)%nat) ->
  (forall k, (k < m_n m)%nat -> (tau k < m_n m)%nat) ->
  (forall i, (i < m_n m)%nat -> tau (sigma i) = i) ->
  (forall k, (k < m_n m)%nat -> sigma (tau k) = k) ->
  mol_ok m = true ->
  match assign_parameters_n QA m ncyc, assign_parameters_n QA (relabel m sigma tau) ncyc with
  | Some ps, Some ps' => forall i, (i < m_n m)%nat -> nth_error ps' (sigma i) = nth_error ps i
  | None, None => True
  | _, _ => False
  end.
Proof.
  intros m ncyc sigma tau Hsigma Htau Hts Hst Hok.
  unfold assign_parameters_n. rewrite Hok, (relabel_ok m sigma tau Hsigma Hok). cbn [negb].
  pose proof (moved_types m sigma tau Hsigma Hts) as Hty.
  pose proof (perm_all_some _ sigma tau Htau Hst _ _ (moved_map _ sigma radius_of _ _ Hty)) as Hrad.
  destruct (all_some (map radius_of (m_types m))) as [radii|];
    destruct (all_some (map radius_of (m_types (relabel m sigma tau)))) as [radii'|]; try contradiction; [|exact I].
  unfold formal_charges2.
  pose proof (perm_all_some _ sigma tau Htau Hst _ _ (moved_formal m sigma tau Hsigma Hts Hok)) as Hfc.
  destruct (all_some (map (formal_charge2 m) (seq 0 (m_n m)))) as [fc2|];
    destruct (all_some (map (formal_charge2 (relabel m sigma tau)) (seq 0 (m_n (relabel m sigma tau))))) as [fc2'|];
    try contradiction; [|exact I].
  rewrite (perm_forallb _ sigma tau Htau Hst _ _ _ Hty).
  destruct (forallb _ (m_types m)); cbn [negb]; [|exact I].
  apply moved_combine; [exact Hrad|].
  apply (moved_equilibrate m sigma tau Hsigma Htau Hts Hst Hok). exact Hfc.
Qed.

(* a successful run carries over to the relabelled molecule *)
Corollary assign_parameters_relabel_Some (m : mol) (ncyc : nat) (sigma tau : nat -> nat) ps :
  (forall i, (i < m_n m)%nat -> (sigma i < m_n m)%nat) ->
  (forall k, (k < m_n m)%nat -> (tau k < m_n m)%nat) ->
  (forall i, (i < m_n m)%nat -> tau (sigma i) = i) ->
  (forall k, (k < m_n m)%nat -> sigma (tau k) = k) ->
  mol_ok m = true ->
  assign_parameters_n QA m ncyc = Some ps ->
  exists ps', assign_parameters_n QA (relabel m sigma tau) ncyc = Some ps' /\
              forall i, (i < m_n m)%nat -> nth_error ps' (sigma i) = nth_error ps i.
Proof.
  intros Hsigma Htau Hts Hst Hok E.
  pose proof (assign_parameters_relabel m ncyc sigma tau Hsigma Htau Hts Hst Hok) as H. rewrite E in H.
  destruct (assign_parameters_n QA (relabel m sigma tau) ncyc) as [ps'|]; [|contradiction].
  exists ps'. split; [reflexivity | exact H].
Qed.

(* not vacuous: methanol with C and O exchanged; both runs succeed, the two
   parameter lists differ as lists and agree through sigma *)
Definition methanol : mol :=
  mkmol ["C.3"; "O.3"; "H"; "H"; "H"; "H"]%string
        [(0, 1, Single); (0, 2, Single); (0, 3, Single); (0, 4, Single); (1, 5, Single)]%nat.
Definition swap01 (i : nat) : nat := match i with 0 => 1 | 1 => 0 | _ => i end%nat.

Example assign_parameters_relabel_witness :
  mol_ok methanol = true /\
  exists ps ps',
    assign_parameters_n QA methanol 2 = Some ps /\
    assign_parameters_n QA (relabel methanol swap01 swap01) 2 = Some ps' /\
    ps <> ps' /\
    nth_error ps' 1 = nth_error ps 0 /\ nth_error ps' 0 = nth_error ps 1.
Proof.
  split; [reflexivity|].
  assert (Hlt : forall i, (i < 6)%nat -> (swap01 i < 6)%nat) by (intros [|[|i]] H; cbn; lia).
  assert (Hinv : forall i, (i < 6)%nat -> swap01 (swap01 i) = i) by (intros [|[|i]] _; reflexivity).
  (* No charge is evaluated: the run succeeds because its four guards pass, the run on
     the relabelled molecule follows, and C and O differ by their radii. *)
  pose proof (assign_parameters_n_Some QA methanol 2 _ _ eq_refl eq_refl eq_refl eq_refl) as E.
  set (ps := combine _ _) in E.
  destruct (assign_parameters_relabel_Some methanol 2 swap01 swap01 ps Hlt Hlt Hinv Hinv eq_refl E) as [ps' [E' H]].
  assert (H0 : nth_error ps' 1 = nth_error ps 0) by (apply (H 0%nat); cbn; lia).
  exists ps, ps'. split; [exact E|]. split; [exact E'|].
  split; [|split; [exact H0 | apply (H 1%nat); cbn; lia]].
  intros <-. destruct (assign_parameters_sound methanol 2 ps (Nat.neq_succ_0 1) E) as [_ [_ [_ [_ [Hrad _]]]]].
  apply (f_equal (option_map (fun p => Some (fst p)))) in H0.
  rewrite <- !nth_error_map, Hrad in H0. discriminate H0.
Qed.

Print Assumptions assign_parameters_relabel_witness.
Print Assumptions assign_parameters_relabel.
