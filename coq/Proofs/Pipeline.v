(* Lemmas about Model/Pipeline.v: the format options do not reach the model (C09),
   the output file (C12), drop_water, apply_name_scheme and the order test all_before;
   last, a small pipeline that meets the hypotheses of the C09 theorem (Demo). *)
From Coq Require Import String List Bool Arith Lia.
From PV Require Import Lib.Lists Model.Pipeline.
Import ListNotations.
Local Open Scope string_scope.

Lemma mem_In x l : mem x l = true <-> In x l.
Proof. exact (existsb_eqb_In String.eqb String.eqb_eq x l). Qed.

Lemma disjoint_spec a b x : disjoint a b = true -> mem x a = true -> mem x b = false.
Proof.
  unfold disjoint. rewrite forallb_forall. intros H Hx.
  apply mem_In in Hx. specialize (H x Hx). now apply negb_true_iff in H.
Qed.

Lemma mem_false x l y : mem x l = false -> In y l -> String.eqb x y = false.
Proof.
  intros H Hy. destruct (String.eqb x y) eqn:E; [|reflexivity].
  apply String.eqb_eq in E. subst y. apply mem_In in Hy. congruence.
Qed.

Lemma kind_eqb_eq a b : kind_eqb a b = true <-> a = b.
Proof. destruct a, b; cbn; split; intros H; try reflexivity; try discriminate. Qed.

Definition noncompute (ds : list sdesc) : bool :=
  forallb (fun e => negb (kind_eqb (sd_kind e) Compute)) ds.

Lemma no_compute_after_rename_cons d r :
  no_compute_after_rename (d :: r)
  = match sd_kind d with Rename => noncompute r | _ => no_compute_after_rename r end.
Proof. reflexivity. Qed.

(* C09: the options of F do not reach the computed model.  [format_noninterference]
   rests on two inductions over the stage list: [compute_noninterference] (runs of the
   Compute stages under stores that agree outside F stay together) and [exec_vs_compute]
   (a complete run ends with the coordinates, charges and radii its Compute stages
   produce), the latter with [noncompute_exec] for the stages behind the renaming. *)
Section NonInterference.
  Variable value state M P : Type.
  Variable model : state -> M.
  Variable phys : M -> P.
  Variable F : list opt.

  Notation stage := (stage value state).
  Notation ok := (stage_ok model phys).

  Definition final_store (sts : list stage) (o : store value) : store value :=
    fold_left (fun o st => upd st o) sts o.

  Lemma agree_reads reads (o1 o2 : store value) :
    disjoint reads F = true -> agree_outside F o1 o2 -> agree_on reads o1 o2.
  Proof.
    intros Hd Ha x Hx. apply Ha. eapply disjoint_spec; eauto.
  Qed.

  Lemma upd_preserves_agree (st : stage) o1 o2 :
    ok st -> c09_stage_ok F (desc st) = true ->
    agree_outside F o1 o2 -> agree_outside F (upd st o1) (upd st o2).
  Proof.
    intros Hok Hc Ha x Hx.
    unfold c09_stage_ok in Hc. apply andb_true_iff in Hc. destruct Hc as [_ Hw].
    destruct (mem x (map fst (sd_writes (desc st)))) eqn:Hm.
    - apply mem_In in Hm. apply in_map_iff in Hm. destruct Hm as [w [Hfx Hin]].
      rewrite forallb_forall in Hw. specialize (Hw w Hin).
      subst x. cbn beta in Hw. unfold opt in *. rewrite Hx in Hw. cbn [orb] in Hw.
      apply (ok_deps Hok o1 o2 w Hin). now apply agree_reads.
    - rewrite (ok_frame Hok o1 x Hm), (ok_frame Hok o2 x Hm). now apply Ha.
  Qed.

  Lemma exec_compute_store (sts : list stage) : forall (o : store value) s o' t,
    exec_compute sts o s = Some (o', t) -> o' = final_store sts o.
  Proof.
    induction sts as [|st r IH]; intros o s o' t H; cbn in *.
    - now inversion H.
    - destruct (kind_eqb (sd_kind (desc st)) Compute).
      + destruct (run st o s) as [s'|]; [|discriminate]. eauto.
      + eauto.
  Qed.

  (* two runs of the compute stages have the same result: both fail, or both
     succeed with the same M part and option stores agreeing outside F *)
  Definition same_result (a b : option (store value * state)) : Prop :=
    match a, b with
    | Some (o1, s), Some (o2, t) => model s = model t /\ agree_outside F o1 o2
    | None, None => True
    | _, _ => False
    end.

  Lemma compute_noninterference (sts : list stage) : forall (o1 o2 : store value) s1 s2,
    Forall ok sts -> forallb (c09_stage_ok F) (map desc sts) = true ->
    agree_outside F o1 o2 -> model s1 = model s2 ->
    same_result (exec_compute sts o1 s1) (exec_compute sts o2 s2).
  Proof.
    induction sts as [|st r IH]; intros o1 o2 s1 s2 Hok Hall Ha Hm.
    - cbn. auto.
    - inversion Hok as [|? ? Hst Hr]; subst. cbn [map forallb] in Hall.
      apply andb_true_iff in Hall. destruct Hall as [Hc Hall].
      assert (Hup : agree_outside F (upd st o1) (upd st o2)) by now apply upd_preserves_agree.
      cbn [exec_compute].
      destruct (kind_eqb (sd_kind (desc st)) Compute) eqn:K; [|now apply IH].
      apply kind_eqb_eq in K.
      assert (Hs : same_model model (run st o1 s1) (run st o2 s2)).
      { apply (ok_compute Hst K); auto.
        unfold c09_stage_ok in Hc. rewrite K in Hc. apply andb_true_iff in Hc.
        apply agree_reads; tauto. }
      destruct (run st o1 s1) as [s1'|], (run st o2 s2) as [s2'|]; cbn in Hs; try contradiction.
      + now apply IH.
      + exact I.
  Qed.

  Lemma run_keeps_phys (st : stage) o s t :
    ok st -> sd_kind (desc st) <> Compute -> run st o s = Some t -> phys (model t) = phys (model s).
  Proof.
    intros Hok K R.
    assert (D : sd_kind (desc st) = Rename \/ sd_kind (desc st) <> Rename)
      by (destruct (sd_kind (desc st)); auto; right; discriminate).
    destruct D as [E|E]; [exact (ok_rename Hok E _ _ _ R) | f_equal; exact (ok_other Hok K E _ _ _ R)].
  Qed.

  (* behind the renaming: the compute-only run does nothing to the state, the
     complete run nothing to its physical part *)
  Lemma noncompute_exec (sts : list stage) : forall (o : store value) s s' o' t,
    Forall ok sts -> noncompute (map desc sts) = true -> exec sts o s = Some (o', t) ->
    exec_compute sts o s' = Some (o', s') /\ phys (model t) = phys (model s).
  Proof.
    induction sts as [|st r IH]; intros o s s' o' t Hok Hn H; cbn [exec exec_compute] in *.
    - inversion H; subst. auto.
    - inversion Hok as [|? ? Hst Hr]; subst.
      unfold noncompute in Hn. cbn [map forallb] in Hn. apply andb_true_iff in Hn. destruct Hn as [Hk Hn].
      apply negb_true_iff in Hk. rewrite Hk.
      destruct (run st o s) as [s1|] eqn:R; [|discriminate].
      destruct (IH _ _ s' _ _ Hr Hn H) as [Hc Hp]. split; [exact Hc|].
      rewrite Hp. apply (run_keeps_phys st o); auto.
      intros K. rewrite K in Hk. discriminate.
  Qed.

  Lemma exec_vs_compute (sts : list stage) : forall (o : store value) s s' o' t,
    Forall ok sts -> no_compute_after_rename (map desc sts) = true ->
    model s = model s' -> exec sts o s = Some (o', t) ->
    exists t', exec_compute sts o s' = Some (o', t') /\ phys (model t') = phys (model t).
  Proof.
    induction sts as [|st r IH]; intros o s s' o' t Hok Hord Hm H.
    - cbn in *. inversion H; subst. exists s'. now rewrite Hm.
    - inversion Hok as [|? ? Hst Hr]; subst. cbn [exec] in H.
      destruct (run st o s) as [s1|] eqn:R; [|discriminate].
      cbn [map] in Hord. rewrite no_compute_after_rename_cons in Hord. cbn [exec_compute].
      destruct (sd_kind (desc st)) eqn:K; cbn [kind_eqb].
      1: { assert (Hs : same_model model (run st o s) (run st o s')).
        { apply (ok_compute Hst K); auto. intros x _. reflexivity. }
        rewrite R in Hs. destruct (run st o s') as [s1'|]; cbn in Hs; [|contradiction].
        exact (IH _ _ _ _ _ Hr Hord Hs H). }
      1: { destruct (noncompute_exec r _ _ s' _ _ Hr Hord H) as [Hc Hp].
        exists s'. split; [exact Hc|].
        now rewrite Hp, (ok_rename Hst K _ _ _ R), Hm. }
      all: assert (E : model s1 = model s) by (eapply (ok_other Hst); eauto; rewrite K; discriminate);
        apply (IH (upd st o) s1 s' o' t Hr); auto; congruence.
  Qed.

  (* the property-level statement; its middle part follows from the other two *)
  Theorem format_noninterference (sts : list stage) :
    Forall ok sts -> c09_obligation F (map desc sts) = true ->
    forall (o1 o2 : store value) (s : state), agree_outside F o1 o2 ->
      same_result (exec_compute sts o1 s) (exec_compute sts o2 s)
      /\ (forall r1 r2, exec sts o1 s = Some r1 -> exec sts o2 s = Some r2 ->
            phys (model (snd r1)) = phys (model (snd r2))
            /\ agree_outside F (fst r1) (fst r2))
      /\ (forall r, exec sts o1 s = Some r ->
            exists t', exec_compute sts o1 s = Some (fst r, t')
                       /\ phys (model t') = phys (model (snd r))).
  Proof.
    intros Hok Hob o1 o2 s Ha.
    unfold c09_obligation in Hob. apply andb_true_iff in Hob. destruct Hob as [Hall Hord].
    pose proof (compute_noninterference sts o1 o2 s s Hok Hall Ha eq_refl) as Hc.
    split; [exact Hc|]. split.
    - intros [o1' t1] [o2' t2] H1 H2. cbn [fst snd].
      destruct (exec_vs_compute sts _ _ s _ _ Hok Hord eq_refl H1) as (t1' & C1 & P1).
      destruct (exec_vs_compute sts _ _ s _ _ Hok Hord eq_refl H2) as (t2' & C2 & P2).
      rewrite C1, C2 in Hc. destruct Hc as [Hm Hs].
      split; [now rewrite <- P1, <- P2, Hm | exact Hs].
    - intros [o' t] H. exact (exec_vs_compute sts _ _ s _ _ Hok Hord eq_refl H).
  Qed.
End NonInterference.

(* the obligation reacts to the edits it is meant to catch *)
Example c09_obligation_detects_read :
  c09_obligation format_opts
    [mk_sdesc "set_termini" "main_driver" Compute ["neutraln"; "keep_chain"] [] [] false false] = false.
Proof. reflexivity. Qed.

Example c09_obligation_detects_order :
  c09_obligation format_opts
    [mk_sdesc "apply_name_scheme" "non_trivial" Rename ["ffout"] [] [] false false;
     mk_sdesc "apply_force_field" "non_trivial" Compute [] [] [] false false] = false.
Proof. reflexivity. Qed.

Example c09_obligation_detects_write :
  c09_obligation format_opts
    [mk_sdesc "transform_arguments" "main_driver" Compute [] [("debump", ["whitespace"])] [] false false] = false.
Proof. reflexivity. Qed.

(* C12: the output file.  The obligation cuts the stage list into a segment that
   neither writes the output path nor swallows, the writer, and another such segment;
   a run over such a segment stops at its first faulty stage and leaves the file alone. *)
Section File.
  Variable C : Type.

  Lemma frun_app a b : forall i flt (c : C) f,
    frun (a ++ b)%list i flt c f
    = match frun a i flt c f with
      | (Finished, f') => frun b (i + length a) flt c f'
      | r => r
      end.
  Proof.
    induction a as [|d a IH]; intros i flt c f; cbn [app length frun].
    - now rewrite Nat.add_0_r.
    - rewrite <- Nat.add_succ_comm.
      destruct (faulty (flt i)); [destruct (sd_swallow d)|]; auto.
  Qed.

  Definition clean_seg (seg : list sdesc) : bool :=
    forallb (fun d => negb (sd_writes_output d) && negb (sd_swallow d)) seg.

  Lemma clean_seg_cons d r : clean_seg (d :: r) = true ->
    sd_writes_output d = false /\ sd_swallow d = false /\ clean_seg r = true.
  Proof.
    cbn [clean_seg forallb]. rewrite !andb_true_iff, !negb_true_iff. tauto.
  Qed.

  Lemma seg_nofault seg : forall i flt (c : C) f,
    clean_seg seg = true ->
    (forall j, j < length seg -> faulty (flt (i + j)) = false) ->
    frun seg i flt c f = (Finished, f).
  Proof.
    induction seg as [|d r IH]; intros i flt c f Hc Hn; [reflexivity|].
    destruct (clean_seg_cons _ _ Hc) as (Hw & _ & Hr).
    cbn [frun]. unfold step_file. rewrite Hw.
    pose proof (Hn 0 ltac:(cbn; lia)) as H0. rewrite Nat.add_0_r in H0. rewrite H0.
    apply IH; auto.
    intros j Hj. rewrite Nat.add_succ_comm. apply Hn. cbn [length]. lia.
  Qed.

  Lemma seg_fault seg : forall i flt (c : C) f,
    clean_seg seg = true ->
    (exists j, j < length seg /\ faulty (flt (i + j)) = true) ->
    exists j0, j0 < length seg /\ frun seg i flt c f = (Raised (i + j0), f)
               /\ faulty (flt (i + j0)) = true
               /\ (forall k, k < j0 -> faulty (flt (i + k)) = false).
  Proof.
    induction seg as [|d r IH]; intros i flt c f Hc [j [Hj Hf]]; cbn [length] in Hj; [lia|].
    destruct (clean_seg_cons _ _ Hc) as (Hw & Hs & Hr).
    cbn [frun]. unfold step_file. rewrite Hw.
    destruct (faulty (flt i)) eqn:E.
    - rewrite Hs. exists 0. rewrite Nat.add_0_r. repeat split; auto; cbn [length]; lia.
    - destruct j as [|j]; [rewrite Nat.add_0_r in Hf; congruence|].
      destruct (IH (S i) flt c f Hr) as (j0 & Hj0 & Hrun & Hfj & Hmin).
      { exists j. split; [lia|]. now rewrite Nat.add_succ_comm. }
      exists (S j0). rewrite <- Nat.add_succ_comm. repeat split; auto.
      + cbn [length]. lia.
      + intros k Hk. destruct k as [|k]; [now rewrite Nat.add_0_r|].
        rewrite <- Nat.add_succ_comm. apply Hmin. lia.
  Qed.

  (* a fault-free clean segment in front of a writer: what happens is decided by
     the writer's own fault *)
  Lemma frun_to_writer pre w post flt (c : C) f :
    clean_seg pre = true -> sd_writes_output w = true -> sd_swallow w = false ->
    (forall k, k < length pre -> faulty (flt k) = false) ->
    frun (pre ++ w :: post)%list 0 flt c f
    = match flt (length pre) with
      | NoFault => frun post (S (length pre)) flt c (Complete c)
      | AtEntry => (Raised (length pre), f)
      | Inside => (Raised (length pre), Partial)
      end.
  Proof.
    intros Hpre Hw Hs Hn. rewrite frun_app, seg_nofault by auto.
    cbn [Nat.add frun]. unfold step_file. rewrite Hw, Hs. now destruct (flt (length pre)).
  Qed.

  Lemma split_writer_spec ds pre w post :
    split_writer ds = Some (pre, w, post) ->
    ds = (pre ++ w :: post)%list /\ sd_writes_output w = true
    /\ forallb (fun d => negb (sd_writes_output d)) pre = true.
  Proof.
    revert pre w post. induction ds as [|d r IH]; intros pre w post H; cbn in H; [discriminate|].
    destruct (sd_writes_output d) eqn:E.
    - inversion H; subst. cbn. auto.
    - destruct (split_writer r) as [[[p w'] q]|] eqn:S; [|discriminate].
      inversion H; subst. destruct (IH _ _ _ eq_refl) as [H1 [H2 H3]].
      subst r. cbn. rewrite E. auto.
  Qed.

  Definition writer_index (ds : list sdesc) : nat :=
    match split_writer ds with Some (pre, _, _) => length pre | None => length ds end.

  Lemma obligation_parts ds :
    c12_obligation ds = true ->
    exists pre w post, ds = (pre ++ w :: post)%list /\ writer_index ds = length pre
      /\ sd_writes_output w = true /\ sd_swallow w = false
      /\ clean_seg pre = true /\ clean_seg post = true.
  Proof.
    unfold c12_obligation, writer_index. intros H.
    destruct (split_writer ds) as [[[pre w] post]|] eqn:S; [|discriminate].
    destruct (split_writer_spec _ _ _ _ S) as [Hds [Hw Hpre]].
    rewrite !andb_true_iff, negb_true_iff in H. destruct H as [[[_ Hsw] Hpre2] Hpost].
    exists pre, w, post. repeat split; auto; unfold clean_seg; rewrite forallb_forall in *; intros d Hd.
    - specialize (Hpre d Hd). specialize (Hpre2 d Hd).
      apply andb_true_iff in Hpre2. destruct Hpre2 as [H1 _]. now rewrite Hpre, H1.
    - specialize (Hpost d Hd). apply andb_true_iff in Hpost. tauto.
  Qed.

  (* a failure before print_pqr: the exception of the first faulty stage propagates,
     the file is untouched *)
  Theorem fault_before_writer ds :
    c12_obligation ds = true ->
    forall flt (c : C) f,
      (exists j, j < writer_index ds /\ faulty (flt j) = true) ->
      exists i, i < writer_index ds /\ frun ds 0 flt c f = (Raised i, f)
                /\ faulty (flt i) = true /\ (forall k, k < i -> faulty (flt k) = false).
  Proof.
    intros Hob flt c f Hj.
    destruct (obligation_parts _ Hob) as (pre & w & post & -> & Hi & _ & _ & Hpre & _).
    rewrite Hi in *.
    destruct (seg_fault pre 0 flt c f Hpre Hj) as (j0 & Hj0 & Hrun & Hfj & Hmin).
    exists j0. rewrite frun_app, Hrun. auto.
  Qed.

  Theorem no_fault_complete ds :
    c12_obligation ds = true ->
    forall flt (c : C) f,
      (forall k, k < length ds -> faulty (flt k) = false) ->
      frun ds 0 flt c f = (Finished, Complete c).
  Proof.
    intros Hob flt c f Hn.
    destruct (obligation_parts _ Hob) as (pre & w & post & -> & _ & Hw & Hs & Hpre & Hpost).
    rewrite app_length in Hn. cbn [length] in Hn.
    rewrite frun_to_writer by (auto; intros k Hk; apply Hn; lia).
    pose proof (Hn (length pre) ltac:(lia)) as Hk. destruct (flt (length pre)); try discriminate.
    apply seg_nofault; auto.
    intros j Hj. apply Hn. lia.
  Qed.

  (* a failure inside print_pqr leaves a partial file; at its entry, nothing *)
  Theorem fault_in_writer ds :
    c12_obligation ds = true ->
    forall flt (c : C) f,
      (forall k, k < writer_index ds -> faulty (flt k) = false) ->
      (flt (writer_index ds) = Inside -> frun ds 0 flt c f = (Raised (writer_index ds), Partial))
      /\ (flt (writer_index ds) = AtEntry -> frun ds 0 flt c f = (Raised (writer_index ds), f)).
  Proof.
    intros Hob flt c f Hn.
    destruct (obligation_parts _ Hob) as (pre & w & post & -> & Hi & Hw & Hs & Hpre & _).
    rewrite Hi in *. rewrite frun_to_writer by auto.
    split; intros ->; reflexivity.
  Qed.

  (* a failure after print_pqr (print_pdb, dump_apbs): the exception
     propagates and the complete PQR stays *)
  Theorem fault_after_writer ds :
    c12_obligation ds = true ->
    forall flt (c : C) f,
      (forall k, k <= writer_index ds -> faulty (flt k) = false) ->
      (exists j, writer_index ds < j < length ds /\ faulty (flt j) = true) ->
      exists i, writer_index ds < i < length ds /\ frun ds 0 flt c f = (Raised i, Complete c).
  Proof.
    intros Hob flt c f Hn [j [Hj Hf]].
    destruct (obligation_parts _ Hob) as (pre & w & post & -> & Hi & Hw & Hs & Hpre & Hpost).
    rewrite Hi in *. rewrite app_length in *. cbn [length] in *.
    rewrite frun_to_writer by (auto; intros k Hk; apply Hn; lia).
    pose proof (Hn (length pre) (le_n _)) as Hk. destruct (flt (length pre)); try discriminate.
    destruct (seg_fault post (S (length pre)) flt c (Complete c) Hpost) as (j0 & Hj0 & Hrun & _).
    { exists (j - S (length pre)). split; [lia|]. now replace (S (length pre) + (j - S (length pre))) with j by lia. }
    exists (S (length pre) + j0). split; [lia|]. exact Hrun.
  Qed.

  (* summary in the wording of the property *)
  Theorem no_partial_output ds :
    c12_obligation ds = true ->
    forall flt (c : C) f,
      ((exists j, j < writer_index ds /\ faulty (flt j) = true) ->
         snd (frun ds 0 flt c f) = f /\ exists i, fst (frun ds 0 flt c f) = Raised i)
      /\ ((forall k, k < length ds -> faulty (flt k) = false) ->
         frun ds 0 flt c f = (Finished, Complete c)).
  Proof.
    intros Hob flt c f. split.
    - intros H. destruct (fault_before_writer ds Hob flt c f H) as [i [_ [Hr _]]].
      rewrite Hr. cbn. eauto.
    - now apply no_fault_complete.
  Qed.
End File.

(* the obligation is needed: a swallowing handler or an early writer lets a
   failed run produce / clobber the output file *)
Example c12_swallow_breaks :
  let ds := [mk_sdesc "apply_force_field" "non_trivial" Compute [] [] [] false true;
             mk_sdesc "print_pqr" "main_driver" Output [] [] [("main.print_pqr", ["output_pqr"])] true false] in
  c12_obligation ds = false
  /\ frun ds 0 (one_fault 0 AtEntry) true (Old false) = (Finished, Complete true).
Proof. split; reflexivity. Qed.

Example c12_early_writer_breaks :
  let ds := [mk_sdesc "print_pqr" "main_driver" Output [] [] [("main.print_pqr", ["output_pqr"])] true false;
             mk_sdesc "raise_if_charge_err" "non_trivial" Compute [] [] [] false false] in
  c12_obligation ds = false
  /\ frun ds 0 (one_fault 1 AtEntry) true (Old false) = (Raised 1, Complete true).
Proof. split; reflexivity. Qed.

Example c12_early_open_breaks :
  let ds := [mk_sdesc "check_files" "main_driver" Compute [] [] [("main.check_files", ["output_pqr"])] true false;
             mk_sdesc "print_pqr" "main_driver" Output [] [] [("main.print_pqr", ["output_pqr"])] true false] in
  c12_obligation ds = false.
Proof. reflexivity. Qed.

Section DropWaterProofs.
  Variable X : Type.
  Notation prec := (prec X).

  Lemma drop_water_filter (l : list prec) :
    drop_water l = filter (fun r => negb (is_water r)) l.
  Proof. induction l as [|r t IH]; cbn; [reflexivity|]. destruct (is_water r); cbn; now rewrite IH. Qed.

  Lemma drop_water_app (l1 l2 : list prec) :
    drop_water (l1 ++ l2)%list = (drop_water l1 ++ drop_water l2)%list.
  Proof. rewrite !drop_water_filter. apply filter_app. Qed.

  Lemma drop_water_no_water (l : list prec) :
    forallb (fun r => negb (is_water r)) (drop_water l) = true.
  Proof.
    rewrite drop_water_filter, forallb_forall. intros r H. apply filter_In in H. tauto.
  Qed.

  Lemma drop_water_fix (l : list prec) :
    forallb (fun r => negb (is_water r)) l = true -> drop_water l = l.
  Proof.
    induction l as [|r t IH]; cbn; [reflexivity|]. intros H.
    apply andb_true_iff in H. destruct H as [Hr Ht]. apply negb_true_iff in Hr.
    rewrite Hr. now rewrite IH.
  Qed.

  Lemma drop_water_idem (l : list prec) : drop_water (drop_water l) = drop_water l.
  Proof. apply drop_water_fix, drop_water_no_water. Qed.

  Lemma drop_water_all_water (l : list prec) :
    forallb is_water l = true -> drop_water l = [].
  Proof.
    induction l as [|r t IH]; cbn; [reflexivity|]. intros H.
    apply andb_true_iff in H. destruct H as [Hr Ht]. rewrite Hr. auto.
  Qed.

  Lemma drop_water_In (l : list prec) r :
    In r (drop_water l) <-> In r l /\ is_water r = false.
  Proof.
    rewrite drop_water_filter, filter_In. rewrite negb_true_iff. tauto.
  Qed.

  (* --drop-water equals running on the input with its water lines deleted,
     for any per-line record parser that classifies lines consistently *)
  Section Commute.
    Variable line : Type.
    Variable parse_line : line -> list prec.    (* records produced by one input line *)
    Variable water_line : line -> bool.         (* the line is a water coordinate record *)
    Hypothesis water_line_yes : forall l, water_line l = true -> forallb is_water (parse_line l) = true.
    Hypothesis water_line_no : forall l, water_line l = false ->
      forallb (fun r => negb (is_water r)) (parse_line l) = true.

    Lemma drop_water_commutes (ls : list line) :
      drop_water (flat_map parse_line ls)
      = flat_map parse_line (filter (fun l => negb (water_line l)) ls).
    Proof.
      induction ls as [|l t IH]; cbn; [reflexivity|].
      rewrite drop_water_app, IH. destruct (water_line l) eqn:E; cbn.
      - now rewrite (drop_water_all_water _ (water_line_yes _ E)).
      - now rewrite (drop_water_fix _ (water_line_no _ E)).
    Qed.
  End Commute.
End DropWaterProofs.

Lemma name_scheme_touches_names_only (Ph : Type) (f : natom Ph -> option (string * string)) (l : list (natom Ph)) :
  map a_phys (apply_name_scheme f l) = map a_phys l
  /\ length (apply_name_scheme f l) = length l.
Proof.
  unfold apply_name_scheme. rewrite map_map, map_length. split; [|reflexivity].
  apply map_ext. intros a. unfold rename_atom. destruct (f a) as [[rn an]|]; reflexivity.
Qed.

Lemma positions_from_spec n ds : forall k i,
  In i (positions_from n ds k)
  <-> exists j d, i = k + j /\ nth_error ds j = Some d /\ sd_name d = n.
Proof.
  induction ds as [|d r IH]; intros k i; cbn [positions_from].
  - split; [intros []|]. intros (j & d & _ & H & _). destruct j; discriminate.
  - split.
    + intros H. assert (Hc : (sd_name d = n /\ i = k) \/ In i (positions_from n r (S k))).
      { destruct (String.eqb_spec (sd_name d) n); [destruct H|]; auto. }
      destruct Hc as [[E ->]|Hc].
      * exists 0, d. rewrite Nat.add_0_r. auto.
      * apply IH in Hc. destruct Hc as (j & d' & -> & Hn & Hname).
        exists (S j), d'. rewrite Nat.add_succ_comm. auto.
    + intros ([|j] & d' & -> & Hn & Hname); cbn in Hn.
      * inversion Hn; subst d'. apply String.eqb_eq in Hname. rewrite Hname, Nat.add_0_r. now left.
      * assert (Hin : In (k + S j) (positions_from n r (S k))).
        { apply IH. exists j, d'. rewrite Nat.add_succ_comm. auto. }
        destruct (String.eqb (sd_name d) n); [now right|exact Hin].
Qed.

Lemma positions_spec n ds i :
  In i (positions n ds) <-> exists d, nth_error ds i = Some d /\ sd_name d = n.
Proof.
  unfold positions. rewrite positions_from_spec. split.
  - intros (j & d & -> & H). now exists d.
  - intros (d & H). now exists i, d.
Qed.

(* meaning of the boolean order fact *)
Lemma all_before_spec a b ds :
  all_before a b ds = true ->
  (exists i da, nth_error ds i = Some da /\ sd_name da = a)
  /\ (exists j db, nth_error ds j = Some db /\ sd_name db = b)
  /\ forall i j da db, nth_error ds i = Some da -> sd_name da = a ->
                       nth_error ds j = Some db -> sd_name db = b -> i < j.
Proof.
  assert (Hne : forall n, positions n ds <> [] -> exists i d, nth_error ds i = Some d /\ sd_name d = n).
  { intros n H. destruct (positions n ds) as [|i l] eqn:E; [congruence|].
    exists i. apply positions_spec. rewrite E. now left. }
  unfold all_before. rewrite !andb_true_iff, !negb_true_iff. intros [[Ha Hb] Hlt].
  split; [|split].
  - apply Hne. intros E. rewrite E in Ha. discriminate.
  - apply Hne. intros E. rewrite E in Hb. discriminate.
  - intros i j da db Hi Hna Hj Hnb.
    rewrite forallb_forall in Hlt. specialize (Hlt i (proj2 (positions_spec a ds i) (ex_intro _ da (conj Hi Hna)))).
    rewrite forallb_forall in Hlt. specialize (Hlt j (proj2 (positions_spec b ds j) (ex_intro _ db (conj Hj Hnb)))).
    now apply Nat.ltb_lt.
Qed.

(* A concrete, non-trivial instance of the hypotheses of format_noninterference:
   options are booleans, the state is (physical part, name flag, rendered text,
   file) with the first two components as the model, a Compute
   stage adds 1 when "neutraln" is set and fails when "fail" is set, a Rename
   stage changes the model but not its projection, a Render stage reads
   "keep_chain", an Output stage fails when "pdb_output" is set. *)
Module Demo.
  Definition st := (nat * bool * nat * nat)%type.   (* (phys part, name flag, rendered, file) *)
  Definition dmodel (s : st) : nat * bool := (fst (fst (fst s)), snd (fst (fst s))).
  Definition dphys (m : nat * bool) : nat := fst m.

  Definition compute_stage : stage bool st :=
    mk_stage (mk_sdesc "set_termini" "main_driver" Compute ["neutraln"; "fail"] [] [] false false)
      (fun (o : store bool) (s : st) => let '(p, n, r, f) := s in
                  if o "fail" then None else Some (if o "neutraln" then S p else p, n, r, f))
      (fun o : store bool => o).
  Definition normalise_stage : stage bool st :=
    mk_stage (mk_sdesc "transform_arguments" "main_driver" Compute []
                [("ffout", ["ffout"]); ("debump", ["clean"])] [] false false)
      (fun (o : store bool) (s : st) => Some s)
      (fun (o : store bool) x => if String.eqb x "ffout" then negb (o "ffout")
                  else if String.eqb x "debump" then negb (o "clean") else o x).
  Definition rename_stage : stage bool st :=
    mk_stage (mk_sdesc "apply_name_scheme" "non_trivial" Rename ["ffout"] [] [] false false)
      (fun (o : store bool) (s : st) => let '(p, n, r, f) := s in Some (p, o "ffout", r, f))
      (fun o : store bool => o).
  Definition render_stage : stage bool st :=
    mk_stage (mk_sdesc "print_biomolecule_atoms" "non_trivial" Render ["keep_chain"] [] [] false false)
      (fun (o : store bool) (s : st) => let '(p, n, r, f) := s in Some (p, n, if o "keep_chain" then 2 * p + 1 else 2 * p, f))
      (fun o : store bool => o).
  Definition output_stage : stage bool st :=
    mk_stage (mk_sdesc "print_pdb" "main_driver" Output ["pdb_output"] [] [] false false)
      (fun (o : store bool) (s : st) => let '(p, n, r, f) := s in if o "pdb_output" then None else Some (p, n, r, r))
      (fun o : store bool => o).

  Definition sts := [normalise_stage; compute_stage; rename_stage; render_stage; output_stage].

  Lemma ok_normalise : stage_ok dmodel dphys normalise_stage.
  Proof.
    constructor; cbn.
    - intros _ o1 o2 s1 s2 _ H. exact H.
    - discriminate.
    - congruence.
    - intros o x H. destruct (String.eqb x "ffout") eqn:E1.
      + apply String.eqb_eq in E1. subst. discriminate.
      + destruct (String.eqb x "debump") eqn:E2; [|reflexivity].
        apply String.eqb_eq in E2. subst. discriminate.
    - intros o1 o2 w [Hw|[Hw|[]]] Ha; subst w; cbn in *.
      + f_equal. apply Ha. reflexivity.
      + f_equal. apply Ha. reflexivity.
  Qed.

  Lemma ok_compute_stage : stage_ok dmodel dphys compute_stage.
  Proof.
    constructor; cbn; try discriminate; try congruence; try contradiction.
    intros _ o1 o2 [[[p1 n1] r1] f1] [[[p2 n2] r2] f2] Ha Hm.
    unfold dmodel in Hm. cbn in Hm. inversion Hm; subst.
    rewrite (Ha "fail" eq_refl), (Ha "neutraln" eq_refl).
    destruct (o2 "fail"); cbn; auto.
  Qed.

  Lemma ok_rename_stage : stage_ok dmodel dphys rename_stage.
  Proof.
    constructor; cbn; try discriminate; try congruence; try contradiction.
    intros _ o [[[p n] r] f] t H. inversion H; subst. reflexivity.
  Qed.

  Lemma ok_render_stage : stage_ok dmodel dphys render_stage.
  Proof.
    constructor; cbn; try discriminate; try congruence; try contradiction.
    intros _ _ o [[[p n] r] f] t H. inversion H; subst. reflexivity.
  Qed.

  Lemma ok_output_stage : stage_ok dmodel dphys output_stage.
  Proof.
    constructor; cbn; try discriminate; try congruence; try contradiction.
    intros _ _ o [[[p n] r] f] t H. destruct (o "pdb_output"); inversion H; subst. reflexivity.
  Qed.

  Lemma sts_ok : Forall (stage_ok dmodel dphys) sts.
  Proof.
    unfold sts.
    apply Forall_cons; [apply ok_normalise|].
    apply Forall_cons; [apply ok_compute_stage|].
    apply Forall_cons; [apply ok_rename_stage|].
    apply Forall_cons; [apply ok_render_stage|].
    apply Forall_cons; [apply ok_output_stage|].
    apply Forall_nil.
  Qed.

  Lemma sts_obligation : c09_obligation format_opts (map desc sts) = true.
  Proof. reflexivity. Qed.

  Definition o1 : store bool := fun x => String.eqb x "neutraln".
  Definition o2 : store bool := fun x => String.eqb x "neutraln" || String.eqb x "keep_chain" || String.eqb x "ffout".

  Lemma o12 : agree_outside format_opts o1 o2.
  Proof.
    intros x Hx. unfold o1, o2.
    rewrite (mem_false _ _ "keep_chain" Hx), (mem_false _ _ "ffout" Hx) by (cbn; tauto).
    now rewrite !orb_false_r.
  Qed.

  Lemma demo_nonvacuous :
    Forall (stage_ok dmodel dphys) sts
    /\ c09_obligation format_opts (map desc sts) = true
    /\ agree_outside format_opts o1 o2
    /\ o1 "keep_chain" <> o2 "keep_chain" /\ o1 "ffout" <> o2 "ffout"
    /\ exists r1 r2,
         exec sts o1 (0, false, 0, 0) = Some r1 /\ exec sts o2 (0, false, 0, 0) = Some r2
         /\ snd r1 <> snd r2
         /\ dphys (dmodel (snd r1)) = 1 /\ dphys (dmodel (snd r2)) = 1.
  Proof.
    split; [exact sts_ok|]. split; [exact sts_obligation|]. split; [exact o12|].
    split; [cbn; discriminate|]. split; [cbn; discriminate|].
    eexists. eexists. split; [vm_compute; reflexivity|]. split; [vm_compute; reflexivity|].
    cbn. split; [discriminate|]. split; reflexivity.
  Qed.
End Demo.
