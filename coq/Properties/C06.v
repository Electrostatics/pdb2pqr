(* C06 - titration follows pKa versus pH and stays within force-field support.
   Property theorems only; proofs are in Proofs/Titration.v, the model in
   Model/Titration.v, the tables in Generated/Titration*.v, FF_*.v, States*.v, Topology.v.

   Vocabulary: [decide ff pos g below] is the transcription of one site of
   Biomolecule.apply_pka_values; [lostf ff name] = atoms of state [name] the
   force field cannot parameterise, computed from the model-built map
   FF_<ff>.built (equal to pdb2pqr's loaded map, C01_table_eq_<ff>) and the
   topology templates; [target_supported] = the state wanted by "protonated iff
   pH < pKa" loses no atom the default state keeps.

   The model has the guard lists of apply_pka_values with finding C06-F10 repaired:
   decide_spec and never_dropped are the full statements over the property's
   quantifier (six force fields, positions N / internal / C, nine groups, all pH and
   pKa). Inputs from the cells of C06-F10 are regression cases (corpus/C06, must pass
   on the real code).

   Refuted by the code as it is (finding C06-F11):
     (termini)  a PROPKA row for N+ / C- reaches the N+ / C- site of apply_pka_values
   so C06_decide_spec speaks about apply_pka_values GIVEN its pKa dict; for the
   termini the pipeline never supplies the entry (C06_pipeline_terminus_refuted).
   The OUTPUT statements (C06_charge_monotone_output, C06_decided_state_parameterised)
   cover all four positions: the charge of a residue is the sum of the exact
   charges FF_<ff>.built gives the final atom set of its state (C02's state rows),
   atoms without parameters being omitted as apply_force_field omits them. A
   one-residue chain (N+C) is modelled as the code treats it: named N* only, so
   OXT / HO are written without parameters and only the N-terminal state charges it. *)
From Coq Require Import String List Bool ZArith QArith PArith.
From PV Require Import Lib.Strings Model.ForceField Model.Titration Proofs.Titration.
From PV Require Model.States Generated.States Generated.Titration.
Import ListNotations.

(* the group ends protonated exactly when pH < pKa, within support: for ALL pH and pKa,
   every built-in force field, the three chain positions, every group and every residue
   type carrying it *)
Theorem C06_decide_spec : forall ff pos g t (ph pka : Q),
  In ff six_ffs -> In pos proper_positions -> applicable pos g = true -> In t (carriers g) ->
  let o := decide ff pos g (below ph pka) in
  (target_supported (lostf ff) t pos g (below ph pka) = true ->
     (protonated_after g o = true <-> (ph < pka)%Q)) /\
  (target_supported (lostf ff) t pos g (below ph pka) = false ->
     o = Keep true).
Proof. exact decide_spec. Qed.

(* a user force field (--userff) matches no guard list *)
Theorem C06_decide_user_ff : forall pos g b, applicable pos g = true ->
  decide OtherFF pos g b =
  match g, wanted_patch g b with
  | _, None => Keep false
  | GARG, Some _ => Keep true
  | _, Some p => Patch p
  end.
Proof. exact decide_user_ff. Qed.

(* no residue is dropped because of titration: every residue type, the three positions,
   every combination of decided sites (N+, C-, side chain; absent / below / above): the
   state the code produces loses no atom the untitrated residue keeps *)
Theorem C06_never_dropped : forall ff t pos s,
  In ff six_ffs -> In pos proper_positions ->
  safe_cell (lostf ff) ff t pos s = true.
Proof. exact never_dropped. Qed.

(* the model's state names are the ones aa.py set_state produced when the
   tables were generated (every type x position x patch subset) *)
Theorem C06_naming_matches_code :
  forallb (fun row => let '(t, pos, ps, name) := row in existsb (String.eqb name) (ffname_after t pos ps))
          Generated.Titration.setstate_tbl = true /\ Generated.Titration.setstate_tbl <> [].
Proof. exact naming_matches_code. Qed.

(* the total charge never increases as pH rises.  Formal charge of the assigned states:
   ALL residue lists, ALL pKa assignments, all pH pairs, every force field (incl. user),
   all positions *)
Theorem C06_charge_monotone_formal : forall ff (rs : list tspec) (ph1 ph2 : Q),
  (ph1 <= ph2)%Q ->
  (total_charge (residue_formalZ formalf) ff ph2 rs <= total_charge (residue_formalZ formalf) ff ph1 rs)%Z.
Proof. exact charge_monotone_formal. Qed.

(* the formal charge is defined for every cell (no totalised default is used) *)
Theorem C06_formal_defined : forall ff t pos s, residue_formal formalf ff t pos s <> None.
Proof. exact formal_defined. Qed.

(* cell_out ff t pos s = (charge written, atoms written without parameters) of the state
   the code produces: decide -> patches -> C02 state row(s) -> assigned over FF_<ff>.built;
   it is defined (all rows and alternatives agree) for every cell *)
Theorem C06_output_defined : forall ff t pos s, In ff six_ffs -> cell_out ff t pos s <> None.
Proof. exact out_defined. Qed.

(* the rows used are those of the state name(s) the naming model gives the cell *)
Theorem C06_state_rows_match_names : forall ff t pos s r,
  In r (rows_for PV.Generated.States.arows t pos (residue_patches ff t pos s)) ->
  exists n, In n (residue_names ff t pos s) /\
            name_id Generated.Titration.name_ids n = Some (PV.Model.States.ar_ff r).
Proof. exact rows_match_names. Qed.

(* FULL: ALL residue lists (all four positions, one-residue chains included), ALL pKa
   assignments, pH1 <= pH2, six force fields: the sum of the exact force-field charges of
   the states the code produces never increases *)
Theorem C06_charge_monotone_output : forall ff (rs : list tspec) (ph1 ph2 : Q),
  In ff six_ffs -> (ph1 <= ph2)%Q ->
  (total_charge exactZ ff ph2 rs <= total_charge exactZ ff ph1 rs)%Z.
Proof. exact charge_monotone_output. Qed.

(* titration never makes an atom unparameterised (all four positions): an atom the decided
   state is written without is one the untitrated residue is written without as well, or - in
   a one-residue chain - one of the atoms NEUTRAL-CTERM adds *)
Theorem C06_decided_state_parameterised : forall ff t pos s, In ff six_ffs ->
  exists q0 md q mx,
    cell_out ff t pos no_sides = Some (q0, md) /\ cell_out ff t pos s = Some (q, mx) /\
    forall a, In a mx -> In a md \/ (pos = PosNC /\ In a cterm_added).
Proof. exact decided_state_parameterised. Qed.

Theorem C06_decided_state_fully_parameterised : forall ff t pos s q0, In ff six_ffs -> In pos proper_positions ->
  cell_out ff t pos no_sides = Some (q0, []) ->
  exists q, cell_out ff t pos s = Some (q, []).
Proof. exact decided_state_fully_parameterised. Qed.

(* composition with C02 (StatesFF_<ff>.state_exact): a completely written state carries
   EXACTLY its formal charge, except the states C02 lists as findings (PARSE NEUTRAL-CPRO) *)
Theorem C06_output_is_formal : forall ff t pos ps r alt q, In ff six_ffs ->
  In r (rows_for PV.Generated.States.arows t pos ps) ->
  In alt (real_alts Generated.Titration.never_final r) ->
  ~ In (PV.Model.States.ar_key r) (exc_keys ff) ->
  assigned (builtf ff) (PV.Model.States.ar_ff r) alt = (q, []) ->
  q = (PV.Model.States.ar_formal r * PV.Model.States.SCALE)%Z.
Proof. exact output_is_formal. Qed.

(* the one-residue chain as the code treats it, and two ordinary cells *)
Example C06_one_residue_chain_as_is :
  (exists oxt, cell_out Amber ALA PosNC no_sides = Some (100000000%Z, [oxt])) /\
  (exists ho oxt, cell_out Parse ALA PosNC (mksides None (Some true) None) = Some (100000000%Z, [ho; oxt])) /\
  cell_out Parse ALA PosNC (mksides (Some false) None None) <> cell_out Parse ALA PosNC no_sides /\
  cell_out Amber CYS PosMid (mksides None None (Some false)) = Some ((-100000000)%Z, []) /\
  cell_out Amber ALA PosC no_sides = Some ((-100000000)%Z, []).
Proof. exact one_residue_chain_as_is. Qed.

(* with pairwise distinct keys every site is decided from
   the value the pKa table holds for ITS key, whatever the other residues are *)
Theorem C06_key_collision_guard : forall ff ph d rs,
  NoDup (map i_key (flat_map items_of rs)) ->
  fst (apply_pka_values ff ph d rs) = map (site_result ff ph d) (flat_map items_of rs).
Proof. exact apply_pka_independent. Qed.

(* without the guard: two residues with the same name, number and chain id (the key has no
   insertion code) share a key, and the second is not titrated *)
Theorem C06_key_collision_refuted :
  exists ff ph d (r1 r2 : residue),
    key_side r1 = key_side r2 /\
    fst (apply_pka_values ff ph d [r1; r2]) <> map (site_result ff ph d) (flat_map items_of [r1; r2]).
Proof. exact key_collision_refuted. Qed.

(* for ALL integers (negative, zero, 4+ digits) and names / chain ids without outer
   whitespace: the dict key main.py builds from res_name, res_num, chain_id is the key
   apply_pka_values computes for that residue, so the row is found at its site *)
Theorem C06_row_key_is_lookup_key : forall (name chain label : string) (num : Z) (pka : Q) (am nt ct : bool),
  lstrip name = name -> name <> EmptyString -> rstrip chain = chain -> chain <> EmptyString ->
  row_key (mkpkarow name num chain label pka) = key_side (mkres am name num chain nt ct).
Proof. exact row_key_is_lookup_key. Qed.

Theorem C06_row_reaches_site : forall (name chain label : string) (num : Z) (pka : Q) (am nt ct : bool),
  lstrip name = name -> name <> EmptyString -> rstrip chain = chain -> chain <> EmptyString ->
  prefix_of name label = true ->
  sget (dict_of_rows [mkpkarow name num chain label pka]) (key_side (mkres am name num chain nt ct)) = Some pka.
Proof. exact row_reaches_site. Qed.

(* the pH compared with the pKa values is the REQUESTED pH (model: ph_of_args is the
   identity). This is the model side of a tie that the check enforces at run time: in every
   end-to-end run the float arriving at apply_pka_values must equal float(requested text),
   for pH and pKa drawn at full float resolution, through three entry points *)
Theorem C06_requested_ph_decides : forall ff (ph : Q) rows rs,
  run_titration ff ph rows rs = pipeline ff ph rows rs.
Proof. exact requested_ph_decides. Qed.

Example C06_requested_ph_full_resolution :
  let row := mkpkarow "ASP" 2 "A" (propka_label "ASP" 2 "A") (38 # 10)%Q in
  let r := mkres true "ASP" 2 "A" false false in
  fst (run_titration Parse (3796 # 1000)%Q [row] [r]) = [Decided GASP (Patch P_ASH)] /\
  fst (run_titration Parse (3799999 # 1000000)%Q [row] [r]) = [Decided GASP (Patch P_ASH)] /\
  fst (run_titration Parse (38 # 10)%Q [row] [r]) = [Decided GASP (Keep false)].
Proof. exact requested_ph_full_resolution. Qed.

(* main.py keeps only rows whose PROPKA label starts with the residue name *)
Theorem C06_rows_filtered : forall rows,
  Forall (fun r => prefix_of (row_resname r) (row_label r) = false) rows ->
  dict_of_rows rows = [].
Proof. exact rows_filtered. Qed.

(* ... so a terminus row ("N+"/"C-" label) never reaches its site, although
   PARSE supports the neutral terminus and decide would apply it (finding C06-F11) *)
Theorem C06_pipeline_terminus_refuted :
  exists (t : rtype) (ph pka : Q) (r : residue) (row : pkarow),
    row_label row = propka_label "N+" (r_seq r) (r_chain r) /\
    r_nterm r = true /\ r_name r = rtype_name t /\
    target_supported (lostf Parse) t PosN GNplus (below ph pka) = true /\
    decide Parse PosN GNplus (below ph pka) = Patch P_NEUTRAL_NTERM /\
    fst (pipeline Parse ph [row] [r]) = [Absent; Absent].
Proof. exact pipeline_terminus_refuted. Qed.

Example C06_nonvacuous :
  target_supported (lostf Parse) CYS PosN GCYS false = true /\ decide Parse PosN GCYS false = Patch P_CYM /\
  target_supported (lostf Charmm) CYS PosMid GCYS false = false /\ decide Charmm PosMid GCYS false = Keep true /\
  residue_formal formalf Parse CYS PosN (mksides None None (Some false)) = Some 0%Z /\
  residue_formal formalf Parse CYS PosN (mksides None None (Some true)) = Some 1%Z /\
  safe_cell (lostf Parse) Parse CYS PosN (mksides None None (Some false)) = true /\
  decide Amber PosN GCYS false = Keep true /\ decide Amber PosMid GCYS false = Patch P_CYM.
Proof. exact nonvacuous. Qed.

(* regression example: the input of finding C06-F10 for the output-charge statement
   (C-terminal CYS in amber, pH 7 -> 10): the total charge does not rise, the guard keeps CYS *)
Example C06_former_f10_witness :
  (total_charge exactZ Amber (10 # 1)%Q [mktspec CYS PosC None None (Some (8 # 1)%Q)]
   <= total_charge exactZ Amber (7 # 1)%Q [mktspec CYS PosC None None (Some (8 # 1)%Q)])%Z /\
  decide Amber PosC GCYS false = Keep true.
Proof. exact charge_monotone_output_former_witness. Qed.

Print Assumptions C06_decide_spec.
Print Assumptions C06_decide_user_ff.
Print Assumptions C06_never_dropped.
Print Assumptions C06_naming_matches_code.
Print Assumptions C06_charge_monotone_formal.
Print Assumptions C06_formal_defined.
Print Assumptions C06_output_defined.
Print Assumptions C06_state_rows_match_names.
Print Assumptions C06_charge_monotone_output.
Print Assumptions C06_decided_state_parameterised.
Print Assumptions C06_decided_state_fully_parameterised.
Print Assumptions C06_output_is_formal.
Print Assumptions C06_one_residue_chain_as_is.
Print Assumptions C06_key_collision_guard.
Print Assumptions C06_key_collision_refuted.
Print Assumptions C06_row_key_is_lookup_key.
Print Assumptions C06_row_reaches_site.
Print Assumptions C06_requested_ph_decides.
Print Assumptions C06_requested_ph_full_resolution.
Print Assumptions C06_rows_filtered.
Print Assumptions C06_pipeline_terminus_refuted.
Print Assumptions C06_nonvacuous.
Print Assumptions C06_former_f10_witness.
