(* The success half of C12, as far as it is provable:
   (1) the integrality guard of main.non_trivial cannot reject a structure made of
       complete standard residues in parameterised table states (C02: Proofs/States.v
       guard_never_fires + the per-force-field table obligations of
       Generated/StatesFF_<ff>.v, regenerated from /repo);
   (2) combined with the stage model: on the GENERATED stage table, if the guard stage
       faults exactly when the modelled guard raises, the guard does not raise, and no
       other stage faults, the run ends (Finished, Complete c).
   What stays exploration: that the other stages (parsing, repair, debumping, hydrogen
   optimisation, pKa, parameter lookup ...) do not raise on a well-formed structure - they
   depend on geometry and are not modelled here; hypothesis [Hothers] below is exactly that. *)
From Coq Require Import List Bool ZArith PArith String Permutation Arith Lia.
From PV Require Import Model.ForceField Model.States Proofs.States.
From PV Require Import Model.Pipeline Proofs.Pipeline Generated.Stages Proofs.StagesC12.
From PV Require Generated.States Generated.FF_AMBER Generated.StatesFF_AMBER.
Import ListNotations.

(* the stage(s) of the generated table that ARE the integrality guard *)
Definition guard_stages : list nat := positions "raise_if_charge_err"%string stages.

Lemma guard_stage_exists : guard_stages <> [].
Proof. vm_compute. discriminate. Qed.

Lemma guard_stage_before_writer : forall g, In g guard_stages -> g < writer_index stages.
Proof.
  assert (H : forallb (fun g => Nat.ltb g (writer_index stages)) guard_stages = true) by (vm_compute; reflexivity).
  intros g Hg. rewrite forallb_forall in H. apply Nat.ltb_lt. exact (H g Hg).
Qed.

(* For ALL charge lists on which the modelled guard does not raise (guard_never_fires: every
   table-consistent residue list), ALL fault vectors in which the guard stage faults iff the
   modelled guard raises and no other stage faults, ALL contents and ALL initial file
   states: the run finishes and the output is Complete. *)
Theorem quiet_guard_run_completes :
  forall (C : Type) qs (flt : nat -> fault) (c : C) (f : fstate C),
    guard_raises qs = false ->
    (forall g, In g guard_stages -> faulty (flt g) = guard_raises qs) ->
    (forall k, k < List.length stages -> ~ In k guard_stages -> faulty (flt k) = false) ->
    frun stages 0 flt c f = (Finished, Complete c).
Proof.
  intros C qs flt c f Hr Hguard Hothers.
  apply no_fault_complete; [exact generated_c12_obligation|].
  intros k Hk. destruct (in_dec Nat.eq_dec k guard_stages) as [Hin|Hout].
  - now rewrite (Hguard k Hin).
  - exact (Hothers k Hk Hout).
Qed.

(* the hypothesis on the guard stage is needed: were the guard to fire, the run would
   raise (at the guard or at an earlier faulty stage) and leave the file state alone
   (no_partial_output, the guard being in front of the writer) *)
Theorem guard_fault_leaves_file :
  forall (C : Type) (flt : nat -> fault) (c : C) (f : fstate C) g,
    In g guard_stages -> faulty (flt g) = true ->
    snd (frun stages 0 flt c f) = f /\ exists i, fst (frun stages 0 flt c f) = Raised i.
Proof.
  intros C flt c f g Hg Hf.
  apply (no_partial_output C stages generated_c12_obligation flt c f).
  exists g. split; [exact (guard_stage_before_writer g Hg) | exact Hf].
Qed.

(* non-vacuity: table-consistent structures exist (an amino residue row picked from the
   generated state table by index, and a water) *)
Definition pick_amino (m : ffmap) (exc : list nat) (arows : list arow) (i j : nat) : option cunit :=
  match nth_error arows i with
  | Some r =>
    match nth_error (ar_alts r) j with
    | Some alt =>
      match resolve m (ar_ff r) alt with
      | Some q => if mem_nat (ar_key r) exc then None else Some (UAmino r alt q)
      | None => None
      end
    | None => None
    end
  | None => None
  end.

Lemma pick_amino_valid m exc arows nrows wat watoms i j u :
  pick_amino m exc arows i j = Some u -> unit_valid m exc arows nrows wat watoms u.
Proof.
  unfold pick_amino. destruct (nth_error arows i) as [r|] eqn:Er; [|discriminate].
  destruct (nth_error (ar_alts r) j) as [alt|] eqn:Ea; [|discriminate].
  destruct (resolve m (ar_ff r) alt) as [q|] eqn:Eq; [|discriminate].
  destruct (mem_nat (ar_key r) exc) eqn:Em; [discriminate|].
  intros H. inversion H; subst u. cbn [unit_valid].
  split; [exact (nth_error_In _ _ Er)|]. split.
  - intros Hin. apply mem_nat_In in Hin. congruence.
  - split; [exact (nth_error_In _ _ Ea) | exact Eq].
Qed.

Example success_nonvacuous_AMBER :
  exists u q qs,
    pick_amino StatesFF_AMBER.built StatesFF_AMBER.known_exceptions States.arows 0 0 = Some u
    /\ Forall (unit_valid StatesFF_AMBER.built StatesFF_AMBER.known_exceptions States.arows States.nrows States.wat_id States.wat_atoms) [u; UWater q]
    /\ Permutation qs (List.concat (map unit_charges [u; UWater q]))
    /\ guard_raises qs = false
    /\ guard_stages <> [].
Proof.
  assert (E : exists u q,
            pick_amino StatesFF_AMBER.built StatesFF_AMBER.known_exceptions States.arows 0 0 = Some u
            /\ resolve StatesFF_AMBER.built States.wat_id States.wat_atoms = Some q)
    by (vm_compute; eauto).
  destruct E as (u & q & E & W).
  exists u, q, (List.concat (map unit_charges [u; UWater q])).
  assert (V : Forall (unit_valid StatesFF_AMBER.built StatesFF_AMBER.known_exceptions States.arows States.nrows States.wat_id States.wat_atoms) [u; UWater q]).
  { constructor; [exact (pick_amino_valid _ _ _ _ _ _ _ _ _ E)|]. constructor; [exact W | constructor]. }
  split; [exact E|]. split; [exact V|]. split; [apply Permutation_refl|]. split.
  - destruct (guard_never_fires _ _ _ _ _ _ StatesFF_AMBER.state_exact StatesFF_AMBER.strand_exact StatesFF_AMBER.round4_facts StatesFF_AMBER.water_neutral _ _ V (Permutation_refl _)) as [_ [H _]]. exact H.
  - exact guard_stage_exists.
Qed.

(* Histories.  C12 quantifies over process histories too: the 2nd, 3rd ... attempt in one
   process behaves like the first.  In the model a run is a function of ITS inputs (the fault
   vector = which stage fails on this input, and the content it would write) and of the file
   state it starts from; nothing else is carried from run to run.  [run_seq] threads the file
   state through a sequence of runs (a file completed by one run is an old file for the next). *)
Definition settle {C : Type} (f : fstate C) : fstate C :=
  match f with Complete c => Old c | x => x end.

Fixpoint run_seq {C : Type} (ds : list sdesc) (inputs : list ((nat -> fault) * C)) (f : fstate C)
  : list (outcome * fstate C) :=
  match inputs with
  | [] => []
  | (flt, c) :: r => let res := frun ds 0 flt c f in res :: run_seq ds r (settle (snd res))
  end.

(* the outcome of a run (raised where / finished) does not depend on the file state it starts from *)
Lemma frun_outcome_indep (C : Type) ds : forall i flt (c : C) f f',
  fst (frun ds i flt c f) = fst (frun ds i flt c f').
Proof.
  induction ds as [|d r IH]; intros i flt c f f'; cbn [frun]; [reflexivity|].
  destruct (faulty (flt i)); [destruct (sd_swallow d); [apply IH | reflexivity] | apply IH].
Qed.

(* history form: the outcomes of a sequence of runs are the outcomes of the single runs, for
   ALL stage lists, ALL input sequences and ALL initial file states *)
Theorem run_seq_outcomes (C : Type) ds (f0 : fstate C) : forall inputs (f : fstate C),
  map fst (run_seq ds inputs f)
  = map (fun ic : (nat -> fault) * C => fst (frun ds 0 (fst ic) (snd ic) f0)) inputs.
Proof.
  induction inputs as [|[flt c] r IH]; intros f; cbn [run_seq map fst snd]; [reflexivity|].
  rewrite IH. f_equal. apply frun_outcome_indep.
Qed.

(* an input whose run fails in front of the writer *)
Definition fails_before_writer {C : Type} ds (ic : (nat -> fault) * C) : Prop :=
  exists j, j < writer_index ds /\ faulty (fst ic j) = true.

(* Each run of a failing history raises and hands the file it found to the next one, so
   whatever follows the history starts from the same file. *)
Lemma run_seq_failing (C : Type) ds :
  c12_obligation ds = true ->
  forall inputs (f : fstate C), settle f = f -> Forall (fails_before_writer ds) inputs ->
    Forall (fun res => snd res = f /\ exists i, fst res = Raised i) (run_seq ds inputs f)
    /\ forall rest, run_seq ds (inputs ++ rest) f = run_seq ds inputs f ++ run_seq ds rest f.
Proof.
  intros Hob inputs f Hs H. induction H as [|[flt c] r Hx H [IH1 IH2]]; cbn [app run_seq]; [now split|].
  destruct (proj1 (no_partial_output C ds Hob flt c f) Hx) as [Hf Hr]. rewrite Hf, Hs.
  split; [constructor; [split|]; assumption | intros rest; now rewrite IH2].
Qed.

(* a history of failing runs (each fails in front of the writer) leaves the file at the output
   path exactly as it was before the first attempt, and every attempt raises *)
Theorem failing_history_keeps_file (C : Type) ds :
  c12_obligation ds = true ->
  forall inputs (f : fstate C), settle f = f -> Forall (fails_before_writer ds) inputs ->
    Forall (fun res => snd res = f /\ exists i, fst res = Raised i) (run_seq ds inputs f).
Proof. intros Hob inputs f Hs H. exact (proj1 (run_seq_failing C ds Hob inputs f Hs H)). Qed.

(* after any history of failing runs, a fault-free run ends exactly like a fresh one *)
Theorem ok_after_failing_history (C : Type) ds :
  c12_obligation ds = true ->
  forall inputs (f : fstate C) flt c, settle f = f -> Forall (fails_before_writer ds) inputs ->
    (forall k, k < List.length ds -> faulty (flt k) = false) ->
    List.last (run_seq ds (inputs ++ [(flt, c)]) f) (Finished, f) = (Finished, Complete c).
Proof.
  intros Hob inputs f flt c Hs H Hok.
  rewrite (proj2 (run_seq_failing C ds Hob inputs f Hs H)). cbn [run_seq]. rewrite last_last.
  exact (no_fault_complete C ds Hob flt c f Hok).
Qed.
