(* Proofs about Model/Mol2Read.v (C16): the reader reads back the canonical
   Tripos rendering of every molecule of its domain; consequences for atom
   order and atom names; Python indexing of bond atom ids and finding C16-F5
   (8-word ATOM records), each with a witness. *)
From Coq Require Import String Ascii List Arith NArith ZArith QArith Bool Lia.
From PV Require Import Lib.Lists Lib.Strings Lib.Decimal Model.Peoe Model.Mol2Read Proofs.Peoe Proofs.PeoeRelabel.
From PV Require Model.PqrFormat Proofs.PqrFormat.
Import ListNotations.
Local Open Scope string_scope.

Lemma contains_no_at p s : any_char is_at s = false -> contains (String "@" p) s = false.
Proof.
  induction s as [|c s IH]; cbn [any_char contains prefix_of]; intros H; [reflexivity|].
  apply orb_false_iff in H as [Hc Hs]. unfold is_at in Hc. rewrite Hc, (IH Hs). reflexivity.
Qed.

Definition goodP (w : string) : Prop := good_word w = true.

Lemma good_parts w : goodP w ->
  is_empty w = false /\ any_char is_ws w = false /\ any_char is_at w = false.
Proof.
  unfold goodP, good_word. intros H.
  apply andb_true_iff in H as [H H3]. apply andb_true_iff in H as [H1 H2].
  apply negb_true_iff in H1, H2, H3. auto.
Qed.

Lemma join_cons2 x y r : join " " (x :: y :: r) = x ++ String sp (join " " (y :: r)).
Proof. reflexivity. Qed.

Lemma join_nonempty x r : is_empty x = false -> is_empty (join " " (x :: r)) = false.
Proof. intros H. destruct r; [exact H|]. rewrite join_cons2. now apply is_empty_app_l. Qed.

Lemma rstrip_join ws : ws <> [] -> Forall goodP ws -> rstrip (join " " ws) = join " " ws.
Proof.
  induction ws as [|x [|y r] IH]; intros Hne Hg; [congruence| |].
  - inversion Hg as [|? ? Hx _]; subst. cbn [join]. rewrite <- (app_empty_r x) at 1.
    apply (rstrip_noblank x 0), (good_parts _ Hx).
  - inversion Hg as [|? ? Hx Hr]; subst. rewrite join_cons2.
    apply rstrip_app_gen.
    + change (String sp (join " " (y :: r))) with (String sp "" ++ join " " (y :: r)).
      apply rstrip_app_gen; [apply IH; [discriminate | exact Hr]|].
      inversion Hr as [|? ? Hy _]; subst. apply join_nonempty. apply (good_parts _ Hy).
    + reflexivity.
Qed.

Lemma lstrip_join x r : goodP x -> lstrip (join " " (x :: r)) = join " " (x :: r).
Proof.
  intros Hx. destruct (good_parts _ Hx) as [Hne [Hws _]].
  assert (H : forall s, lstrip (x ++ s) = x ++ s).
  { intros s. destruct x as [|c x]; [discriminate|]. cbn [append lstrip any_char] in *.
    apply orb_false_iff in Hws as [Hc _]. now rewrite Hc. }
  destruct r; [cbn [join]; specialize (H ""); now rewrite app_empty_r in H | rewrite join_cons2; apply H].
Qed.

Lemma strip_join ws : ws <> [] -> Forall goodP ws -> strip (join " " ws) = join " " ws.
Proof.
  intros Hne Hg. unfold strip. destruct ws as [|x r]; [congruence|].
  inversion Hg as [|? ? Hx Hr]; subst. rewrite lstrip_join by exact Hx. now apply rstrip_join.
Qed.

Lemma tokens_join ws : Forall goodP ws -> tokens (join " " ws) = ws.
Proof.
  intros Hg. rewrite tokens_join_sp. induction Hg as [|x r Hx Hr IH]; [reflexivity|].
  cbn [map concat]. destruct (good_parts _ Hx) as [Hne [Hws _]].
  rewrite (tokens_single _ Hws Hne), IH. reflexivity.
Qed.

Lemma no_at_join ws : Forall goodP ws -> any_char is_at (join " " ws) = false.
Proof.
  induction ws as [|x [|y r] IH]; intros Hg; [reflexivity| |].
  - inversion Hg; subst. now apply good_parts.
  - inversion Hg as [|? ? Hx Hr]; subst. rewrite join_cons2, any_char_app. cbn [any_char].
    rewrite (IH Hr). destruct (good_parts _ Hx) as [_ [_ Hat]]. rewrite Hat. reflexivity.
Qed.

(* a canonical record line survives strip(), is not blank and holds no marker *)
Lemma record_line ws :
  ws <> [] -> Forall goodP ws ->
  let l := join " " ws in
  strip l = l /\ is_empty l = false /\ (forall p, contains (String "@" p) l = false).
Proof.
  intros Hne Hg l. split; [apply strip_join; assumption|].
  split; [|intros p; apply contains_no_at, no_at_join, Hg].
  destruct Hg as [|x r Hx _]; [congruence | apply join_nonempty, (good_parts _ Hx)].
Qed.

Lemma digit_not_at c : PqrFormat.is_digit c = true -> is_at c = false.
Proof. destruct c as [[] [] [] [] [] [] [] []]; vm_compute; congruence. Qed.

Lemma good_Z z : goodP (Z_to_string z).
Proof.
  unfold goodP, good_word.
  rewrite (Proofs.PqrFormat.Z_to_string_nonempty z), (Proofs.PqrFormat.Z_to_string_no_ws z). cbn [negb andb].
  apply negb_true_iff. rewrite Proofs.PqrFormat.Z_to_string_cases.
  destruct (z <? 0)%Z; cbn [any_char]; [change (is_at "-") with false; cbn [orb]|];
    apply (all_not_any PqrFormat.is_digit is_at _ digit_not_at), Proofs.PqrFormat.N_to_string_digits.
Qed.

Lemma bond_word_btype t : bond_word (btype_word t) = Ok t.
Proof. destruct t; reflexivity. Qed.

Lemma good_btype t : goodP (btype_word t).
Proof. destruct t; reflexivity. Qed.

Lemma py_index_pos n a : (a < n)%nat -> py_index n (Z.of_nat (S a) - 1) = Some a.
Proof.
  intros H. unfold py_index.
  replace (Z.of_nat (S a) - 1)%Z with (Z.of_nat a) by lia.
  assert (E : ((0 <=? Z.of_nat a) && (Z.of_nat a <? Z.of_nat n))%Z = true).
  { apply andb_true_iff. split; [apply Z.leb_le | apply Z.ltb_lt]; lia. }
  rewrite E, Nat2Z.id. reflexivity.
Qed.

(* what an accepted atom id denotes: the position id-1 for 1 <= id <= n, and
   - the quirk - the position n+id-1 counted from the END for -n < id <= 0 *)
Lemma py_index_spec n k a :
  py_index n (k - 1) = Some a ->
  ((1 <= k <= Z.of_nat n)%Z /\ Z.of_nat a = (k - 1)%Z) \/
  ((- Z.of_nat n < k <= 0)%Z /\ Z.of_nat a = (Z.of_nat n + k - 1)%Z).
Proof.
  unfold py_index.
  destruct ((0 <=? k - 1) && (k - 1 <? Z.of_nat n))%Z eqn:E1.
  - apply andb_true_iff in E1 as [H1 H2]. apply Z.leb_le in H1. apply Z.ltb_lt in H2.
    intros H; injection H as <-. left. split; [lia|]. rewrite Z2Nat.id; lia.
  - destruct ((- Z.of_nat n <=? k - 1) && (k - 1 <? 0))%Z eqn:E2; [|discriminate].
    apply andb_true_iff in E2 as [H1 H2]. apply Z.leb_le in H1. apply Z.ltb_lt in H2.
    intros H; injection H as <-. right. split; [lia|]. rewrite Z2Nat.id; lia.
Qed.

Definition bond_fields (b : rbond) : list string :=
  [Z_to_string (rb_id b); Z_to_string (Z.of_nat (S (rb_a1 b))); Z_to_string (Z.of_nat (S (rb_a2 b)));
   btype_word (rb_type b)].

Lemma bond_line_fields b : Forall goodP (bond_fields b).
Proof. repeat constructor; try apply good_Z. apply good_btype. Qed.

Lemma parse_bond_line n b :
  wf_bond n b = true -> parse_bond_words n (tokens (bond_line b)) = Ok b.
Proof.
  intros Hwf. change (bond_line b) with (join " " (bond_fields b)). rewrite (tokens_join _ (bond_line_fields b)).
  apply andb_true_iff in Hwf as [H1 H2]. apply Nat.ltb_lt in H1, H2.
  unfold parse_bond_words, bond_fields. rewrite bond_word_btype, !Proofs.PqrFormat.py_int_Z_to_string, !py_index_pos by assumption.
  destruct b; reflexivity.
Qed.

Section ReaderProofs.
  Context (float_ok : string -> bool) (co : bool).

  Local Notation atoms_loop := (atoms_loop float_ok co).
  Local Notation wf_atom := (wf_atom float_ok co).
  Local Notation mol_of_text := (mol_of_text float_ok co).
  Local Notation wf_molecule := (wf_molecule float_ok co).

  Definition atom_fields (a : ratom) : list string :=
    ([Z_to_string (ra_serial a); ra_name a; ra_x a; ra_y a; ra_z a; ra_type a;
      Z_to_string (ra_resseq a); ra_resname a] ++
     match ra_charge a with Some c => [c] | None => [] end)%list.

  Lemma atom_line_fields a : atom_line a = join " " (atom_fields a).
  Proof. reflexivity. Qed.

  Lemma wf_atom_spec a : wf_atom a = true ->
    goodP (ra_name a) /\ goodP (ra_x a) /\ goodP (ra_y a) /\ goodP (ra_z a) /\
    float_ok (ra_x a) = true /\ float_ok (ra_y a) = true /\ float_ok (ra_z a) = true /\
    goodP (ra_type a) /\ norm_type (ra_type a) = Some (ra_type a) /\
    goodP (ra_resname a) /\ (String.length (ra_resname a) <= 4)%nat /\
    match ra_charge a with Some c => goodP c /\ float_ok c = true | None => co = true end.
  Proof.
    unfold Mol2Read.wf_atom. rewrite !andb_true_iff. intros H. decompose [and] H. clear H.
    repeat (split; [assumption|]).
    split.
    { match goal with Hn : norm_fixed _ = true |- _ =>
        unfold norm_fixed in Hn; destruct (norm_type (ra_type a)) as [t'|]; [|discriminate];
        apply String.eqb_eq in Hn; now subst t' end. }
    split; [assumption|]. split; [now apply Nat.leb_le|].
    destruct (ra_charge a); [now apply andb_true_iff | assumption].
  Qed.

  Lemma wf_atom_fields a : wf_atom a = true -> Forall goodP (atom_fields a).
  Proof.
    intros H. apply wf_atom_spec in H. decompose [and] H. clear H. unfold atom_fields.
    repeat (constructor; [first [apply good_Z | assumption]|]).
    destruct (ra_charge a) as [c|]; [|constructor].
    match goal with Hc : _ /\ _ |- _ => destruct Hc as [Hc _] end.
    constructor; [assumption | constructor].
  Qed.

  Lemma parse_atom_line a :
    wf_atom a = true -> parse_atom_words float_ok co (tokens (atom_line a)) = Ok a.
  Proof.
    intros Hwf. rewrite atom_line_fields, (tokens_join _ (wf_atom_fields a Hwf)).
    apply wf_atom_spec in Hwf. decompose [and] Hwf. clear Hwf.
    unfold atom_fields, parse_atom_words. cbn [app].
    match goal with Hn : norm_type _ = Some _ |- _ => rewrite Hn end.
    rewrite !Proofs.PqrFormat.py_int_Z_to_string.
    repeat match goal with Hf : float_ok _ = true |- _ => rewrite Hf; clear Hf end. cbn [andb].
    match goal with Hl : (_ <= 4)%nat |- _ => rewrite (take_all 4 _ Hl) end.
    destruct a as [se nm x y z ty rs rn [c|]]; cbn [ra_charge ra_serial ra_name ra_x ra_y ra_z ra_type ra_resseq ra_resname] in *.
    - match goal with Hc : _ /\ float_ok c = true |- _ => destruct Hc as [_ Hc]; rewrite Hc end.
      reflexivity.
    - match goal with Hc : co = true |- _ => rewrite Hc end. reflexivity.
  Qed.

  Lemma has_name_false nm acc : ~ In nm (map ra_name acc) -> has_name nm acc = false.
  Proof.
    unfold has_name. induction acc as [|a acc IH]; cbn [map existsb In]; intros H; [reflexivity|].
    rewrite IH by tauto. destruct (String.eqb_spec (ra_name a) nm) as [E|E]; [exfalso; apply H; now left | reflexivity].
  Qed.

  Lemma atoms_loop_canon (ats : list ratom) : forall (acc : list ratom) (rest : list string),
    forallb wf_atom ats = true ->
    NoDup (map ra_name (acc ++ ats)%list) ->
    atoms_loop (map atom_line ats ++ marker_bond :: rest)%list acc false = (Ok (acc ++ ats)%list, rest).
  Proof.
    induction ats as [|a ats IH]; intros acc rest Hwf Hnd.
    - cbn [map app]. rewrite app_nil_r. reflexivity.
    - cbn [forallb] in Hwf. apply andb_true_iff in Hwf as [Ha Hats].
      cbn [map app Mol2Read.atoms_loop].
      destruct (record_line (atom_fields a)) as [Hs [Hne Hc]]; [discriminate | exact (wf_atom_fields a Ha) |].
      change (join " " _) with (atom_line a) in Hs, Hne, Hc.
      rewrite Hs, Hne. unfold marker_bond at 1. rewrite Hc, (parse_atom_line a Ha), has_name_false.
      + replace (acc ++ a :: ats)%list with ((acc ++ [a]) ++ ats)%list by (rewrite <- app_assoc; reflexivity).
        apply IH; [exact Hats|]. rewrite <- app_assoc. exact Hnd.
      + rewrite map_app in Hnd. cbn [map] in Hnd. apply NoDup_remove_2 in Hnd.
        intro Hin. apply Hnd. apply in_or_app. now left.
  Qed.

  Lemma bonds_loop_canon n (bs : list rbond) : forall (acc : list rbond) (trailer : list string),
    forallb (wf_bond n) bs = true ->
    bonds_loop n (map bond_line bs ++ marker_subst :: trailer)%list acc = Ok (acc ++ bs)%list.
  Proof.
    induction bs as [|b bs IH]; intros acc trailer Hwf.
    - cbn [map app]. rewrite app_nil_r. reflexivity.
    - cbn [forallb] in Hwf. apply andb_true_iff in Hwf as [Hb Hbs].
      cbn [map app Mol2Read.bonds_loop].
      destruct (record_line (bond_fields b)) as [Hs [Hne Hc]]; [discriminate | exact (bond_line_fields b) |].
      change (join " " _) with (bond_line b) in Hs, Hne, Hc.
      rewrite Hs, Hne. unfold marker_subst at 1. rewrite Hc, (parse_bond_line n b Hb).
      replace (acc ++ b :: bs)%list with ((acc ++ [b]) ++ bs)%list by (rewrite <- app_assoc; reflexivity).
      apply IH, Hbs.
  Qed.

  Lemma skip_header hdr rest :
    Forall (fun l => contains marker_atom l = false) hdr ->
    skip_to_atoms (hdr ++ marker_atom :: rest)%list = rest.
  Proof.
    induction 1 as [|l hdr Hl _ IH]; cbn [app skip_to_atoms]; [reflexivity|]. now rewrite Hl.
  Qed.

  Theorem mol2_read_roundtrip_with (hdr trailer : list string) (m : molecule) :
    Forall (fun l => contains marker_atom l = false) hdr ->
    wf_molecule m ->
    mol_of_text (mol2_text_with hdr trailer m) = Ok m.
  Proof.
    intros Hh [Ha [Hnd Hb]]. unfold Mol2Read.mol_of_text, mol2_text_with. cbn [app].
    rewrite (skip_header hdr _ Hh).
    rewrite (atoms_loop_canon (ml_atoms m) [] _ Ha Hnd). cbn [app].
    rewrite (bonds_loop_canon _ (ml_bonds m) [] trailer Hb). cbn [app].
    destruct m; reflexivity.
  Qed.

  Lemma std_header_ok m : Forall (fun l => contains marker_atom l = false) (std_header m).
  Proof.
    unfold std_header. repeat constructor.
    unfold marker_atom. apply contains_no_at, no_at_join.
    repeat constructor; apply good_Z.
  Qed.

  Theorem mol2_read_roundtrip (m : molecule) :
    wf_molecule m -> mol_of_text (mol2_text m) = Ok m.
  Proof. intros H. apply mol2_read_roundtrip_with; [apply std_header_ok | exact H]. Qed.

  Section Permute.
    Context (m : molecule) (sigma tau : nat -> nat).
    Local Notation n := (List.length (ml_atoms m)).
    Context (Hsigma : forall i, (i < n)%nat -> (sigma i < n)%nat).
    Context (Htau : forall k, (k < n)%nat -> (tau k < n)%nat).
    Context (Hts : forall i, (i < n)%nat -> tau (sigma i) = i).
    Context (Hst : forall k, (k < n)%nat -> sigma (tau k) = k).
    Context (Hwf : wf_molecule m).

    Lemma permute_length : List.length (ml_atoms (permute m sigma tau)) = n.
    Proof. unfold permute. cbn [ml_atoms]. now rewrite map_length, seq_length. Qed.

    Lemma nth_inj_names (i j : nat) :
      (i < n)%nat -> (j < n)%nat ->
      ra_name (nth i (ml_atoms m) dummy_atom) = ra_name (nth j (ml_atoms m) dummy_atom) -> i = j.
    Proof.
      intros Hi Hj E. destruct Hwf as [_ [Hnd _]].
      rewrite <- !(map_nth ra_name) in E.
      apply (proj1 (NoDup_nth (map ra_name (ml_atoms m)) (ra_name dummy_atom)) Hnd); rewrite ?map_length; assumption.
    Qed.

    Lemma permute_wf : wf_molecule (permute m sigma tau).
    Proof.
      destruct Hwf as [Ha [Hnd Hb]]. unfold Mol2Read.wf_molecule. rewrite permute_length.
      unfold permute. cbn [ml_atoms ml_bonds]. split; [|split].
      - apply forallb_forall. intros a' Hin. apply in_map_iff in Hin as [k [<- Hk]].
        apply in_seq in Hk. rewrite forallb_forall in Ha.
        (* wf_atom does not look at the serial number *)
        change (wf_atom (nth (tau k) (ml_atoms m) dummy_atom) = true). apply Ha, nth_In, Htau. lia.
      - rewrite map_map. cbn [ra_name].
        apply (proj2 (NoDup_nth _ "")). rewrite map_length, seq_length. intros i j Hi Hj E.
        rewrite !(nth_map_seq (fun k => ra_name (nth (tau k) (ml_atoms m) dummy_atom))) in E by assumption.
        apply nth_inj_names in E; [|apply Htau; assumption ..].
        rewrite <- (Hst i Hi), <- (Hst j Hj), E. reflexivity.
      - apply forallb_forall. intros b' Hin. apply in_map_iff in Hin as [b [<- Hin]].
        rewrite forallb_forall in Hb. specialize (Hb b Hin).
        unfold wf_bond in *. cbn [rb_a1 rb_a2]. apply andb_true_iff in Hb as [H1 H2].
        apply Nat.ltb_lt in H1, H2. apply andb_true_iff. split; apply Nat.ltb_lt; apply Hsigma; assumption.
    Qed.

    Lemma to_mol_n : m_n (to_mol m) = n.
    Proof. unfold m_n, to_mol. cbn [m_types]. apply map_length. Qed.

    (* the molecule read from the reordered text is, at the level of
       assign_parameters' input, the relabelled molecule of Proofs/Peoe.v *)
    Lemma to_mol_permute : to_mol (permute m sigma tau) = relabel (to_mol m) sigma tau.
    Proof.
      unfold relabel. rewrite to_mol_n. unfold to_mol, permute. cbn [ml_atoms ml_bonds m_bonds m_types].
      f_equal.
      - rewrite map_map. cbn [ra_type]. apply map_ext_in. intros k Hk. apply in_seq in Hk.
        unfold m_ty. cbn [m_types]. change "" with (ra_type dummy_atom). now rewrite map_nth.
      - rewrite !map_map. reflexivity.
    Qed.

    Lemma to_mol_ok : mol_ok (to_mol m) = true.
    Proof.
      destruct Hwf as [_ [_ Hb]]. unfold mol_ok, bonds_ok, m_pairs. rewrite to_mol_n.
      unfold to_mol. cbn [m_bonds]. rewrite map_map. cbn [fst].
      apply forallb_forall. intros p Hin. apply in_map_iff in Hin as [b [<- Hin]].
      rewrite forallb_forall in Hb. exact (Hb b Hin).
    Qed.

    (* ATOM records permuted, bond atom ids renumbered consistently: the reader
       returns the permuted molecule (every atom keeps its name, coordinates,
       type, residue fields and charge; every bond its id, type and - through
       sigma - its two atoms) *)
    Theorem mol2_order_equivariance :
      mol_of_text (mol2_text (permute m sigma tau)) = Ok (permute m sigma tau) /\
      to_mol (permute m sigma tau) = relabel (to_mol m) sigma tau /\
      (forall i, (i < n)%nat ->
         let a := nth i (ml_atoms m) dummy_atom in
         let a' := nth (sigma i) (ml_atoms (permute m sigma tau)) dummy_atom in
         ra_name a' = ra_name a /\ ra_type a' = ra_type a /\ ra_x a' = ra_x a /\ ra_y a' = ra_y a /\
         ra_z a' = ra_z a /\ ra_charge a' = ra_charge a /\ ra_serial a' = Z.of_nat (S (sigma i))).
    Proof.
      split; [apply mol2_read_roundtrip, permute_wf|]. split; [apply to_mol_permute|].
      intros i Hi. cbv zeta. unfold permute. cbn [ml_atoms].
      rewrite nth_map_seq by (apply Hsigma, Hi).
      cbn [ra_name ra_type ra_x ra_y ra_z ra_charge ra_serial]. rewrite (Hts i Hi). repeat split.
    Qed.

    (* composition with the PEOE theorems (exact field Q, any cycle count): the
       charges and radii assigned from the reordered TEXT are those assigned
       from the original text, moved with their atoms; one raises iff the other
       does.  No tie-freeness condition is needed for this statement because
       the BOND lines keep their order (the order-dependent phosphate rule of
       formal_charge walks BOND lines, not atoms - C16_formal_charge_equivariant). *)
    Theorem text_order_independent (ncyc : nat) :
      exists m1 m2,
        mol_of_text (mol2_text m) = Ok m1 /\
        mol_of_text (mol2_text (permute m sigma tau)) = Ok m2 /\
        match assign_parameters_n QA (to_mol m1) ncyc, assign_parameters_n QA (to_mol m2) ncyc with
        | Some ps, Some ps' => forall i, (i < n)%nat -> nth_error ps' (sigma i) = nth_error ps i
        | None, None => True
        | _, _ => False
        end.
    Proof.
      exists m, (permute m sigma tau).
      split; [apply mol2_read_roundtrip, Hwf|]. split; [apply mol2_read_roundtrip, permute_wf|].
      rewrite to_mol_permute. rewrite <- to_mol_n.
      apply assign_parameters_relabel; rewrite ?to_mol_n; try assumption. apply to_mol_ok.
    Qed.
  End Permute.

  Lemma rename_atoms_length m names :
    List.length names = List.length (ml_atoms m) ->
    List.length (ml_atoms (rename m names)) = List.length (ml_atoms m).
  Proof. intros H. unfold rename. cbn [ml_atoms]. rewrite map_length, combine_length, H. apply Nat.min_id. Qed.

  Theorem mol2_names_irrelevant (m : molecule) (names : list string) :
    wf_molecule m ->
    List.length names = List.length (ml_atoms m) -> Forall goodP names -> NoDup names ->
    mol_of_text (mol2_text (rename m names)) = Ok (rename m names) /\
    to_mol (rename m names) = to_mol m /\
    map ra_name (ml_atoms (rename m names)) = names /\
    (forall A (ops : Arith A) ncyc,
       assign_parameters_n ops (to_mol (rename m names)) ncyc = assign_parameters_n ops (to_mol m) ncyc).
  Proof.
    intros [Ha [Hnd Hb]] Hl Hg Hnn.
    assert (Hnames : map ra_name (ml_atoms (rename m names)) = names).
    { unfold rename. cbn [ml_atoms]. rewrite map_map. cbn [set_name ra_name].
      exact (map_snd_combine _ _ (eq_sym Hl)). }
    assert (Hto : to_mol (rename m names) = to_mol m).
    { unfold to_mol, rename. cbn [ml_atoms ml_bonds]. f_equal. rewrite map_map. cbn [set_name ra_type].
      now rewrite <- (map_map fst ra_type), map_fst_combine. }
    split; [|split; [exact Hto | split; [exact Hnames | intros; now rewrite Hto]]].
    apply mol2_read_roundtrip. split; [|split].
    - unfold rename. cbn [ml_atoms]. apply forallb_forall. intros a' Hin.
      apply in_map_iff in Hin as [[a nm] [<- Hin]]. cbn [fst snd].
      pose proof (in_combine_l _ _ _ _ Hin) as Hina. pose proof (in_combine_r _ _ _ _ Hin) as Hinn.
      rewrite forallb_forall in Ha. specialize (Ha a Hina).
      rewrite Forall_forall in Hg. specialize (Hg nm Hinn).
      unfold Mol2Read.wf_atom in *. cbn [set_name ra_name ra_x ra_y ra_z ra_type ra_resname ra_charge].
      unfold goodP in Hg. rewrite !andb_true_iff in Ha |- *. intuition.
    - rewrite Hnames. exact Hnn.
    - rewrite rename_atoms_length by exact Hl. exact Hb.
  Qed.
End ReaderProofs.

(* bonded_atoms as the kernel derives it from the BOND lines is symmetric:
   j is listed for i exactly when i is listed for j (each BOND line appends
   both ways) *)
Theorem adjacency_symmetric (m : molecule) i j :
  In j (nbrs (m_pairs (to_mol m)) i) <-> In i (nbrs (m_pairs (to_mol m)) j).
Proof. rewrite !nbrs_in. split; intros [b [Hb H]]; exists b; (split; [exact Hb|]); tauto. Qed.

Definition ethanolish : molecule :=
  mkmolecule [mkratom 1 "C1" "0.0" "0.0" "0.0" "C.3" 1 "LIG" (Some "0.0");
              mkratom 2 "O1" "1.4" "0.0" "0.0" "O.3" 1 "LIG" (Some "0.0");
              mkratom 3 "H1" "2.0" "0.5" "0.0" "H" 1 "LIG" (Some "0.0")]
             [mkrbond 1 0 1 Single; mkrbond 2 1 2 Single].

(* FULL STATEMENT (refuted): "in an accepted file every bond atom id k denotes
   the k-th ATOM record".  Witness: the BOND record `1 1 0 1` of a 3-atom
   molecule is accepted and bonds atom 1 to the LAST atom (Python's [-1]). *)
Theorem mol2_bond_id_zero_refuted :
  exists (lines : list string) (m : molecule),
    In "1 1 0 1" lines /\
    mol_of_text py_float_ok false lines = Ok m /\
    List.length (ml_atoms m) = 3%nat /\
    ml_bonds m = [mkrbond 1 0 2 Single].
Proof.
  exists ["@<TRIPOS>ATOM"; "1 C1 0.0 0.0 0.0 C.3 1 LIG 0.0"; "2 O1 1.4 0.0 0.0 O.3 1 LIG 0.0";
          "3 H1 2.0 0.5 0.0 H 1 LIG 0.0"; "@<TRIPOS>BOND"; "1 1 0 1"].
  eexists. split; [cbn; tauto|]. split; [vm_compute; reflexivity|]. split; reflexivity.
Qed.

(* ... and the guard under which the reading is the intended one: an accepted
   BOND record whose atom ids are in 1..n denotes exactly those positions; the
   only other accepted ids are -n < id <= 0, read from the end *)
Theorem mol2_bond_ids_partial (n : nat) (w0 w1 w2 w3 : string) (more : list string) (b : rbond) (i1 i2 : Z) :
  parse_bond_words n (w0 :: w1 :: w2 :: w3 :: more) = Ok b ->
  PqrFormat.py_int w1 = Some i1 -> PqrFormat.py_int w2 = Some i2 ->
  (((1 <= i1 <= Z.of_nat n)%Z /\ Z.of_nat (rb_a1 b) = (i1 - 1)%Z) \/
   ((- Z.of_nat n < i1 <= 0)%Z /\ Z.of_nat (rb_a1 b) = (Z.of_nat n + i1 - 1)%Z)) /\
  (((1 <= i2 <= Z.of_nat n)%Z /\ Z.of_nat (rb_a2 b) = (i2 - 1)%Z) \/
   ((- Z.of_nat n < i2 <= 0)%Z /\ Z.of_nat (rb_a2 b) = (Z.of_nat n + i2 - 1)%Z)) /\
  bond_word w3 = Ok (rb_type b).
Proof.
  unfold parse_bond_words. intros H H1 H2.
  destruct (bond_word w3) as [bt|e]; [|discriminate].
  destruct (PqrFormat.py_int w0) as [bid|]; [|discriminate].
  rewrite H1, H2 in H.
  destruct (py_index n (i1 - 1)) as [a1|] eqn:E1; [|discriminate].
  destruct (py_index n (i2 - 1)) as [a2|] eqn:E2; [|discriminate].
  injection H as <-. cbn [rb_a1 rb_a2 rb_type].
  split; [exact (py_index_spec _ _ _ E1) | split; [exact (py_index_spec _ _ _ E2) | reflexivity]].
Qed.

Definition ethanolish_nocharge : molecule :=
  mkmolecule (map (fun a => mkratom (ra_serial a) (ra_name a) (ra_x a) (ra_y a) (ra_z a) (ra_type a)
                                     (ra_resseq a) (ra_resname a) None) (ml_atoms ethanolish))
             (ml_bonds ethanolish).

Lemma ethanolish_nocharge_wf : wf_molecule py_float_ok true ethanolish_nocharge.
Proof.
  split; [vm_compute; reflexivity|]. split; [|vm_compute; reflexivity].
  cbn. repeat constructor; cbn; intuition discriminate.
Qed.

(* FULL STATEMENT "every molecule of the Tripos format with supported fields
   is read": refuted for pdb2pqr before commit 26073e7 (charge_optional =
   false).  The charge field of an ATOM record is optional in the format; the
   guard before reading words[8] was `if len(line) > 8:`, the number of
   CHARACTERS, so an 8-word record raised IndexError (finding C16-F5).  Commit
   26073e7 tests `len(words) > 8` (charge_optional = true, pdb2pqr as it is):
   the same text is read back, as an instance of the round trip. *)
Theorem mol2_eight_words_refuted :
  wf_molecule py_float_ok true ethanolish_nocharge /\
  mol_of_text py_float_ok false (mol2_text ethanolish_nocharge) = Raise IndexError /\
  mol_of_text py_float_ok true (mol2_text ethanolish_nocharge) = Ok ethanolish_nocharge.
Proof.
  split; [exact ethanolish_nocharge_wf|]. split; [vm_compute; reflexivity|].
  apply mol2_read_roundtrip, ethanolish_nocharge_wf.
Qed.

(* non-vacuity of the domain: ethanolish is in it, already for the narrower
   charge_optional = false (every ATOM record has its charge field) *)
Lemma ethanolish_wf : wf_molecule py_float_ok false ethanolish.
Proof.
  split; [vm_compute; reflexivity|]. split; [|vm_compute; reflexivity].
  cbn. repeat constructor; cbn; intuition discriminate.
Qed.
