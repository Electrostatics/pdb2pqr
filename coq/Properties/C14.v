(* C14 - neighbour search returns every atom within range.
   Property theorems only; proofs are in Proofs/Cells.v (the cell list) and
   Proofs/CellsUse.v (the call-site protocols; tables from Generated/C14Sites.v). *)
From Coq Require Import ZArith List.
From PV Require Import Model.Cells Proofs.Cells Model.CellsUse Proofs.CellsUse Generated.C14Sites.
Import ListNotations.
Local Open Scope Z_scope.

(* the code's int()-then-floor-division bucket is the cell index of width
   D*size (times size) - for negative, zero, boundary and huge coordinates *)
Theorem C14_key_code_idx : forall size D m,
  0 < size -> 0 < D -> key_code size D m = idx (D * size) m * size.
Proof. exact key_code_idx. Qed.

(* coordinates closer than one cell width fall in the same or adjacent cells *)
Theorem C14_idx_adjacent : forall S m1 m2,
  0 < S -> Z.abs (m1 - m2) < S -> Z.abs (idx S m1 - idx S m2) <= 1.
Proof. exact idx_adjacent. Qed.

(* in any state meeting the invariant, a query followed by distance filtering
   with any cutoff <= cell size equals the brute-force all-pairs answer *)
Theorem C14_query_exact : forall size D, 0 < size -> 0 < D ->
  forall s a b c, Inv size D s -> 0 <= c <= D * size -> registered s a ->
  (In b (filter (within c s a) (get_near_cells size s a)) <->
   registered s b /\ b <> a /\ within c s a b = true).
Proof. exact query_exact. Qed.

(* no atom is reported twice *)
Theorem C14_query_nodup : forall size D, 0 < size ->
  forall s a, Inv size D s -> NoDup (get_near_cells size s a).
Proof. intros size D H. exact (query_nodup size D H). Qed.

(* every disciplined operation keeps the invariant *)
Theorem C14_inv_step : forall size D s o,
  Inv size D s -> disciplined s o -> Inv size D (step size D s o).
Proof. exact inv_step. Qed.

(* hence: after ANY disciplined history of add/remove/move from the empty
   map, for any coordinates, queries equal brute force and have no duplicates *)
Theorem C14_reachable_query_exact : forall size D, 0 < size -> 0 < D ->
  forall p0 ops a b c,
  disciplined_run size D (init p0) ops ->
  0 <= c <= D * size ->
  let s := run size D (init p0) ops in
  registered s a ->
  (In b (filter (within c s a) (get_near_cells size s a)) <->
   registered s b /\ b <> a /\ within c s a b = true) /\
  NoDup (get_near_cells size s a).
Proof. exact reachable_query_exact. Qed.

(* the discipline is necessary: moving a registered atom loses a neighbour.
   That pdb2pqr's call sites, as modelled in Model/CellsUse.v, are disciplined
   is proved in the C14_protocol_ theorems below. *)
Theorem C14_undisciplined_miss :
  exists (p0 : nat -> pos) (ops : list op) (a b : nat),
    let s := run 5 1 (init p0) ops in
    cell_of s a <> None /\ cell_of s b <> None /\ b <> a /\
    within 5 s a b = true /\ ~ In b (get_near_cells 5 s a).
Proof. exact undisciplined_miss. Qed.

Example C14_nonvacuous :
  let p0 := fun n : nat => match n with 0%nat => (-3, 0, 7) | 1%nat => (1, -4, 9) | _ => (40, 40, 40) end in
  let ops := [Add 0%nat; Add 1%nat; Add 2%nat; Remove 1%nat; Move 1%nat (1, -2, 9); Add 1%nat] in
  disciplined_run 5 1 (init p0) ops /\
  filter (within 5 (run 5 1 (init p0) ops) 0%nat) (get_near_cells 5 (run 5 1 (init p0) ops) 0%nat) = [1%nat].
Proof. exact nonvacuous. Qed.

(* The call-site protocols (Model/CellsUse.v).
   Good size D u  =  object allocation is sane, the cell list is truthful
   about exactly the atoms of the structure (Inv, registered <-> present), and
   it was so at every get_near_cells call logged so far. *)

(* the source has exactly the call-site skeletons the model was written from *)
Theorem C14_sites_table_matches_model : table_eqb sites modelled_sites = true.
Proof. exact sites_table_matches_model. Qed.

(* Cells.assign_cells on a new Cells object, atoms = the atoms of the structure *)
Theorem C14_protocol_assign_cells_disciplined : forall size D, 0 < size -> 0 < D ->
  forall atoms u0, NoDup atoms -> (forall a, In a atoms <-> present u0 a = true) -> alloc u0 ->
  Good size D (assign_cells size D atoms u0).
Proof. intros size D _ _. exact (P_assign size D). Qed.

(* Debump.set_dihedral_angle, for all atom lists and all new coordinates *)
Theorem C14_protocol_set_dihedral_angle_disciplined : forall size D atoms f u,
  Good size D u -> Good size D (set_dihedral_angle size D atoms f u).
Proof. exact P_set_dihedral. Qed.

(* the whole debump window: any interleaving of set_dihedral_angle calls and
   find_nearby_atoms queries; every query is logged in a truthful state *)
Theorem C14_protocol_debump_window_disciplined : forall size D sc u,
  Good size D u -> Good size D (debump_run size D sc u).
Proof. exact P_debump_run. Qed.

(* remove_cell(a); remove_atom(a) for any list of atoms: Flip.fix_flip,
   Flip.finalize, Alcoholic.__init__, the undo of try_both, the complete() tails,
   Carboxylic.fix / try_acceptor / rename *)
Theorem C14_protocol_remove_delete_disciplined : forall size D dels u,
  Good size D u -> Good size D (remove_delete_all dels u).
Proof. exact P_remove_delete_all. Qed.

(* Flip.__init__ *)
Theorem C14_protocol_flip_init_disciplined : forall size D atoms f news u,
  Good size D u -> Good size D (flip_init size D atoms f news u).
Proof. exact P_flip_init. Qed.

(* Carboxylic.__init__ / try_acceptor / fix / finalize (with its queries) *)
Theorem C14_protocol_carboxylic_disciplined : forall size D u, Good size D u ->
  (forall steps, Good size D (carboxylic_init size D steps u)) /\
  (forall del ren, Good size D (carboxylic_try_acceptor del ren u)) /\
  (forall dels ren, Good size D (carboxylic_fix dels ren u)) /\
  (forall fixed qs dels ren, Good size D (carboxylic_finalize fixed qs dels ren u)).
Proof. exact T_protocol_carboxylic_disciplined. Qed.

(* get_positions_with_two_bonds / get_position_with_three_bonds (as repaired by
   e1a3cf3, C14-F6): registered atoms are rotated twice and then written back to
   their saved coordinates; for ALL rotation results the cell list is truthful
   again afterwards (no query is issued in between) *)
Theorem C14_protocol_get_positions_disciplined : forall size D atom g u,
  Good size D u ->
  Good size D (get_positions_with_two_bonds atom g u) /\
  Good size D (get_position_with_three_bonds atom g u).
Proof. exact T_protocol_get_positions_disciplined. Qed.

(* regression of C14-F6: H2 exactly on a cell boundary is found after the call *)
Example C14_get_positions_regression :
  let u' := get_positions_with_two_bonds 0%nat f6_g f6_u in
  posn (cs u') 2%nat = (50, 0, 0) /\ cell_of (cs u') 2%nat = Some (5, 0, 0) /\
  filter (within 50 (cs u') 3%nat) (get_near_cells 5 (cs u') 3%nat) = [0%nat; 1%nat; 2%nat].
Proof. exact get_positions_regression. Qed.

(* Alcoholic/Water.try_donor and try_acceptor with everything they call in
   optimize.py (the make_ , try_single_alcoholic_ , try_positions_ and
   get_position families), for all oracle answers and every bond count *)
Theorem C14_protocol_try_donor_acceptor_disciplined : forall size D o a u, Good size D u ->
  Good size D (alcoholic_try_donor size D o a u) /\ Good size D (alcoholic_try_acceptor size D o a u) /\
  Good size D (water_try_donor size D o a u) /\ Good size D (water_try_acceptor size D o a u).
Proof. exact T_protocol_try_donor_acceptor_disciplined. Qed.

(* X.try_both: own try_donor, the other object's try_acceptor, undo *)
Theorem C14_protocol_try_both_disciplined : forall size D mine other ok undo u,
  (forall u, Good size D u -> Good size D (mine u)) -> (forall u, Good size D u -> Good size D (other u)) ->
  Good size D u -> Good size D (try_both_undo mine other ok undo u).
Proof. exact P_try_both_undo. Qed.

(* Alcoholic.finalize and Water.finalize (any recursion depth), with the
   get_near_cells / get_closest_atom calls inside their loops *)
Theorem C14_protocol_finalize_disciplined : forall size D u, Good size D u ->
  (forall o atom, Good size D (alcoholic_finalize size D o atom u)) /\
  (forall fuel o atom, Good size D (water_finalize size D fuel o atom u)).
Proof. exact T_protocol_finalize_disciplined. Qed.

(* static half of "the block used for atom a was queried for a": every loop over a
   get_near_cells block iterates it in the statement list where it was queried,
   unconditionally, and the block variable has no other binding (table from the source) *)
Theorem C14_blocks_used_where_queried : forallb (fun r => snd r) query_use = true.
Proof. exact blocks_used_where_queried. Qed.

(* why that matters: a block queried for atom 0 and used for its group mate 1 misses
   atom 2, which is within range of atom 1 and in the block queried for atom 1 *)
Theorem C14_block_reuse_misses :
  Good 5 10 reuse_u /\
  let q := mkQ 0%nat 1%nat (cs reuse_u) (present reuse_u) in
  q_present q 2%nat = true /\ within 50 (q_cs q) (q_used q) 2%nat = true /\
  ~ In 2%nat (get_near_cells 5 (q_cs q) (q_atom q)) /\
  In 2%nat (get_near_cells 5 (q_cs q) (q_used q)).
Proof. exact block_reuse_misses. Qed.

(* ANY sequence of the modelled protocols after assign_cells: every block of
   neighbours is used for the atom it was queried for, and after distance
   filtering around THAT atom it equals brute force over the atoms that were in the
   structure at that moment; so does any query on the final state *)
Theorem C14_histories_of_protocols : forall size D, 0 < size -> 0 < D ->
  forall atoms u0 cl,
  NoDup atoms -> (forall a, In a atoms <-> present u0 a = true) -> alloc u0 ->
  let u := run_calls size D cl (assign_cells size D atoms u0) in
  (forall q, In q (qlog u) -> q_used q = q_atom q) /\
  (forall q, In q (qlog u) -> q_present q (q_used q) = true ->
     forall b c0, 0 <= c0 <= D * size ->
     (In b (filter (within c0 (q_cs q) (q_used q)) (get_near_cells size (q_cs q) (q_atom q))) <->
      q_present q b = true /\ b <> q_used q /\ within c0 (q_cs q) (q_used q) b = true)) /\
  (forall a, present u a = true -> forall b c0, 0 <= c0 <= D * size ->
     (In b (filter (within c0 (cs u) a) (get_near_cells size (cs u) a)) <->
      present u b = true /\ b <> a /\ within c0 (cs u) a b = true)).
Proof. exact histories_of_protocols. Qed.

Example C14_history_nonvacuous :
  let o := mkFin false (42, 5, 0) [0%nat] (fun i m => (42, 5, Z.of_nat i)) (Some (43, 4, 1)) (0, 0, 0) false true false in
  let t := mkTry true (41, -3, 2) [0%nat] (fun i m => (60, 60, Z.of_nat i)) true true (39, 2, -5) (Some (41, -3, 2)) in
  let u0 := mkU (mk (fun _ => []) (fun _ => None)
                    (fun a => match a with 0%nat => (40, 0, 0) | 1%nat => (38, 8, 0) | _ => (-1, 0, 0) end))
                (fun a => Nat.ltb a 3) (fun a => match a with 0%nat => [1%nat] | 1%nat => [0%nat] | _ => [] end) 3 [] in
  let u := run_calls 5 10 [CSetDihedral [1%nat] (fun _ => (38, 9, 1)); CAlcFinalize o 0%nat; CAlcTryAcceptor t 0%nat; CDetect [0%nat]] (assign_cells 5 10 [0%nat; 1%nat; 2%nat] u0) in
  List.length (qlog u) = 19%nat /\ present u 3%nat = true /\ present u 4%nat = true /\
  posn (cs u) 3%nat = (43, 4, 1) /\
  filter (within 50 (cs u) 0%nat) (get_near_cells 5 (cs u) 0%nat) = [2%nat; 4%nat; 1%nat; 3%nat].
Proof. exact history_nonvacuous. Qed.

Print Assumptions C14_key_code_idx.
Print Assumptions C14_idx_adjacent.
Print Assumptions C14_query_exact.
Print Assumptions C14_query_nodup.
Print Assumptions C14_inv_step.
Print Assumptions C14_reachable_query_exact.
Print Assumptions C14_undisciplined_miss.
Print Assumptions C14_nonvacuous.
Print Assumptions C14_sites_table_matches_model.
Print Assumptions C14_protocol_assign_cells_disciplined.
Print Assumptions C14_protocol_set_dihedral_angle_disciplined.
Print Assumptions C14_protocol_debump_window_disciplined.
Print Assumptions C14_protocol_remove_delete_disciplined.
Print Assumptions C14_protocol_flip_init_disciplined.
Print Assumptions C14_protocol_carboxylic_disciplined.
Print Assumptions C14_protocol_try_donor_acceptor_disciplined.
Print Assumptions C14_protocol_try_both_disciplined.
Print Assumptions C14_protocol_finalize_disciplined.
Print Assumptions C14_protocol_get_positions_disciplined.
Print Assumptions C14_get_positions_regression.
Print Assumptions C14_blocks_used_where_queried.
Print Assumptions C14_block_reuse_misses.
Print Assumptions C14_histories_of_protocols.
Print Assumptions C14_history_nonvacuous.
