(* Proofs about Model/Peoe.v (C16).  Over any arithmetic obeying the field laws of Q
   the PEOE kernel conserves the total charge (the transfers of a bond cancel) and
   commutes with a relabelling of the atoms, as do the formal charges; radii come
   positive from the tables; assign_parameters end to end; the ligand transfer
   loop changes the selected residues only. *)
From Coq Require Import String Ascii List Arith NArith ZArith QArith Qabs Qreduction Bool Lia Lqa Setoid.
From PV Require Import Lib.Lists Lib.Strings Lib.Decimal Model.Peoe.
Import ListNotations.

Record QLaws (ops : Arith Q) : Prop := mkQLaws {
  l_zero : a_zero ops == 0;
  l_one : a_one ops == 1;
  l_add : forall x y, a_add ops x y == x + y;
  l_sub : forall x y, a_sub ops x y == x - y;
  l_mul : forall x y, a_mul ops x y == x * y;
  l_div : forall x y, a_div ops x y == x / y;
  l_abs : forall x, a_abs ops x == Qabs x;
  l_ltb : forall x y, a_ltb ops x y = true <-> x < y;
  l_eqb : forall x y, a_eqb ops x y = true <-> x == y;
  l_ofZ : forall z, a_ofZ ops z == inject_Z z
}.

Lemma QA_laws : QLaws QA.
Proof.
  constructor.
  - reflexivity.
  - reflexivity.
  - intros x y; exact (Qred_correct _).
  - intros x y; exact (Qred_correct _).
  - intros x y; exact (Qred_correct _).
  - intros x y; exact (Qred_correct _).
  - reflexivity.
  - intros x y. change (negb (Qle_bool y x) = true <-> x < y).
    rewrite negb_true_iff. split; intro H.
    + apply Qnot_le_lt. intro Hle. apply Qle_bool_iff in Hle. congruence.
    + destruct (Qle_bool y x) eqn:E; [|reflexivity].
      apply Qle_bool_iff in E. exfalso. exact (Qlt_not_le _ _ H E).
  - intros x y; exact (Qeq_bool_iff x y).
  - reflexivity.
Qed.

Fixpoint Qsum (l : list Q) : Q := match l with [] => 0 | x :: r => x + Qsum r end.

Lemma Qsum_app l1 l2 : Qsum (l1 ++ l2) == Qsum l1 + Qsum l2.
Proof. induction l1 as [|x l1 IH]; cbn [map app Qsum]; [ring | rewrite IH; ring]. Qed.

Lemma Qsum_map_plus {X} (f g : X -> Q) l :
  Qsum (map (fun x => f x + g x) l) == Qsum (map f l) + Qsum (map g l).
Proof. induction l as [|x l IH]; cbn [map app Qsum]; [ring | rewrite IH; ring]. Qed.

Lemma Qsum_map_ext {X} (f g : X -> Q) l :
  (forall x, In x l -> f x == g x) -> Qsum (map f l) == Qsum (map g l).
Proof.
  induction l as [|x l IH]; cbn [map app Qsum]; intros H; [reflexivity|].
  rewrite (H x (or_introl eq_refl)), IH; [reflexivity|]. intros; apply H; now right.
Qed.

Lemma Qsum_map_zero {X} (f : X -> Q) l :
  (forall x, In x l -> f x == 0) -> Qsum (map f l) == 0.
Proof.
  intros H. rewrite (Qsum_map_ext f (fun _ => 0) l H).
  induction l as [|x l IH]; cbn [map app Qsum]; [reflexivity|]. rewrite IH; [ring|]. intros; apply H; now right.
Qed.

Lemma Qsum_map_scale {X} (c : Q) (f : X -> Q) l :
  Qsum (map (fun x => c * f x) l) == c * Qsum (map f l).
Proof. induction l as [|x l IH]; cbn [map app Qsum]; [ring | rewrite IH; ring]. Qed.

Lemma Qsum_map_const {X} (c : Q) (l : list X) :
  Qsum (map (fun _ => c) l) == inject_Z (Z.of_nat (length l)) * c.
Proof.
  induction l as [|x l IH]; [cbn [map Qsum length Z.of_nat]; change (inject_Z 0) with 0; ring|].
  cbn [map Qsum length]. rewrite IH.
  rewrite Nat2Z.inj_succ, <- Z.add_1_r, inject_Z_plus. ring.
Qed.

Lemma Qsum_map_nonneg {X} (f : X -> Q) l : (forall x, In x l -> 0 <= f x) -> 0 <= Qsum (map f l).
Proof.
  induction l as [|x l IH]; cbn [map Qsum]; intros H; [apply Qle_refl|].
  rewrite <- (Qplus_0_r 0). apply Qplus_le_compat; [apply H; now left | apply IH; intros; apply H; now right].
Qed.

Lemma Qsum_map_nonneg_zero {X} (f : X -> Q) l :
  (forall x, In x l -> 0 <= f x) -> Qsum (map f l) == 0 -> forall x, In x l -> f x == 0.
Proof.
  induction l as [|y l IH]; cbn [map Qsum]; intros Hnn Hs x Hx; [contradiction|].
  assert (Hy : 0 <= f y) by (apply Hnn; now left).
  assert (Hl : 0 <= Qsum (map f l)) by (apply Qsum_map_nonneg; intros; apply Hnn; now right).
  assert (Hy0 : f y == 0) by lra.
  destruct Hx as [->|Hx]; [exact Hy0|].
  apply IH; [intros; apply Hnn; now right | lra | exact Hx].
Qed.

(* sum over positions of an indicator *)
Lemma Qsum_indicator (h : nat -> Q) (a s n : nat) :
  (s <= a < s + n)%nat ->
  Qsum (map (fun i => if (a =? i)%nat then h i else 0) (seq s n)) == h a.
Proof.
  revert s. induction n as [|n IH]; intros s Ha; [lia|].
  cbn [seq map Qsum].
  destruct (Nat.eqb_spec a s) as [->|Hne].
  - rewrite Qsum_map_zero; [ring|]. intros x Hx. apply in_seq in Hx.
    destruct (Nat.eqb_spec s x); [lia | reflexivity].
  - rewrite IH by lia. ring.
Qed.

Lemma all_some_map {V} (l : list (option V)) r : all_some l = Some r -> l = map Some r.
Proof.
  revert r. induction l as [|[v|] l IH]; cbn [all_some]; intros r H; try discriminate.
  - injection H as <-. reflexivity.
  - destruct (all_some l); [|discriminate]. injection H as <-. cbn [map]. f_equal. now apply IH.
Qed.

Lemma all_some_length {V} (l : list (option V)) r : all_some l = Some r -> length r = length l.
Proof. intros H. apply all_some_map in H. subst l. now rewrite map_length. Qed.

Lemma bonds_ok_in n bonds b : bonds_ok n bonds = true -> In b bonds -> (fst b < n)%nat /\ (snd b < n)%nat.
Proof.
  unfold bonds_ok. rewrite forallb_forall. intros Hok Hin.
  specialize (Hok b Hin). apply andb_true_iff in Hok as [Ha Hb]. now apply Nat.ltb_lt in Ha, Hb.
Qed.

Lemma nbrs_in bonds i j :
  In j (nbrs bonds i) <-> exists b, In b bonds /\ ((fst b = i /\ snd b = j) \/ (snd b = i /\ fst b = j)).
Proof.
  unfold nbrs. rewrite in_flat_map. split.
  - intros [b [Hb Hin]]. exists b. split; [exact Hb|]. apply in_app_or in Hin as [Hin|Hin].
    + destruct (Nat.eqb_spec (fst b) i); [destruct Hin as [<-|[]]; now left | contradiction].
    + destruct (Nat.eqb_spec (snd b) i); [destruct Hin as [<-|[]]; now right | contradiction].
  - intros [b [Hb [[<- <-]|[<- <-]]]]; exists b; (split; [exact Hb|]); apply in_or_app.
    + left. rewrite Nat.eqb_refl. now left.
    + right. rewrite Nat.eqb_refl. now left.
Qed.

Lemma nbrs_lt n bonds i j : bonds_ok n bonds = true -> In j (nbrs bonds i) -> (j < n)%nat.
Proof.
  intros Hok Hin. apply nbrs_in in Hin as [b [Hb H]].
  destruct (bonds_ok_in n bonds b Hok Hb) as [Ha Hc]. destruct H as [[_ <-]|[_ <-]]; assumption.
Qed.

Section Lengths.
  Context {A T : Type} (ops : Arith A) (chi : T -> A -> A).
  Context (n : nat) (ty : nat -> T) (bonds : list (nat * nat)) (ch : nat -> A) (damp scale : A) (ncyc : nat).

  Lemma cycle_length q k : length (cycle ops chi n ty bonds ch damp scale ncyc q k) = n.
  Proof. unfold cycle, atoms. now rewrite map_length, seq_length. Qed.

  Lemma cycles_length q k m : length q = n -> length (cycles ops chi n ty bonds ch damp scale ncyc q k m) = n.
  Proof. revert q k. induction m as [|m IH]; intros q k H; cbn [cycles]; [exact H|]. apply IH, cycle_length. Qed.

  Lemma equilibrate_length : length (equilibrate ops chi n ty bonds ch damp scale ncyc) = n.
  Proof. unfold equilibrate. rewrite map_length. apply cycles_length, repeat_length. Qed.
End Lengths.

Section Conservation.
  Context (ops : Arith Q) (L : QLaws ops).
  Context {T : Type} (chi : T -> Q -> Q).
  Context (n : nat) (ty : nat -> T) (bonds : list (nat * nat)) (ch : nat -> Q).
  Context (damp scale : Q) (ncyc : nat).

  Local Notation nbrs := (nbrs bonds).
  Local Notation transfer := (transfer ops chi ty damp).
  Local Notation delta := (delta ops chi ty bonds damp).
  Local Notation efc := (efc ops ch scale).
  Local Notation abs_qges := (abs_qges ops n ch).
  Local Notation cycle := (cycle ops chi n ty bonds ch damp scale ncyc).
  Local Notation cycles := (cycles ops chi n ty bonds ch damp scale ncyc).

  Lemma fold_add_sum {X} (f : X -> Q) (l : list X) (z : Q) :
    fold_left (fun acc j => a_add ops acc (f j)) l z == z + Qsum (map f l).
  Proof.
    revert z. induction l as [|x l IH]; intros z; cbn; [ring|].
    rewrite IH, (l_add ops L). ring.
  Qed.

  (* the pair transfer is antisymmetric: the normaliser chosen for (i,j) is the
     one chosen for (j,i) whenever the electronegativities differ *)
  Lemma transfer_antisym (q : nat -> Q) (k i j : nat) :
    transfer q k i j + transfer q k j i == 0.
  Proof.
    unfold Peoe.transfer.
    set (c1 := chi (ty i) (q i)). set (c2 := chi (ty j) (q j)).
    set (ni := chi (ty i) (a_ofZ ops 1)). set (nj := chi (ty j) (a_ofZ ops 1)).
    set (d := pow ops damp (S k)).
    rewrite !(l_mul ops L), !(l_div ops L), !(l_sub ops L).
    destruct (a_ltb ops c1 c2) eqn:E12; destruct (a_ltb ops c2 c1) eqn:E21.
    - apply (l_ltb ops L) in E12. apply (l_ltb ops L) in E21.
      exfalso. exact (Qlt_irrefl _ (Qlt_trans _ _ _ E12 E21)).
    - unfold Qdiv. ring.
    - unfold Qdiv. ring.
    - assert (H : c2 == c1).
      { apply Qle_antisym; apply Qnot_lt_le; intro H; apply (l_ltb ops L) in H; congruence. }
      unfold Qdiv. rewrite H. ring.
  Qed.

  Lemma delta_sum (q : nat -> Q) (k i : nat) :
    delta q k i == Qsum (map (transfer q k i) (nbrs i)).
  Proof. unfold Peoe.delta. rewrite fold_add_sum, (l_zero ops L). ring. Qed.

  (* sum over atoms of sums over bonded atoms = sum over bonds of both directions *)
  Lemma double_sum (g : nat -> nat -> Q) :
    bonds_ok n bonds = true ->
    Qsum (map (fun i => Qsum (map (g i) (nbrs i))) (seq 0 n)) ==
    Qsum (map (fun b => g (fst b) (snd b) + g (snd b) (fst b)) bonds).
  Proof.
    unfold bonds_ok, Peoe.nbrs. induction bonds as [|b bs IH]; intros Hok.
    - cbn. apply Qsum_map_zero. reflexivity.
    - cbn [forallb] in Hok. apply andb_true_iff in Hok as [Hb Hok].
      apply andb_true_iff in Hb as [Ha Hb]. apply Nat.ltb_lt in Ha, Hb.
      cbn [flat_map map Qsum].
      rewrite <- (IH Hok).
      rewrite <- (Qsum_indicator (fun i => g i (snd b)) (fst b) 0 n) by lia.
      rewrite <- (Qsum_indicator (fun i => g i (fst b)) (snd b) 0 n) by lia.
      rewrite <- !Qsum_map_plus. apply Qsum_map_ext. intros i _.
      rewrite !map_app, !Qsum_app.
      destruct (fst b =? i)%nat; destruct (snd b =? i)%nat; cbn; ring.
  Qed.

  Lemma delta_total (q : nat -> Q) (k : nat) :
    bonds_ok n bonds = true -> Qsum (map (delta q k) (seq 0 n)) == 0.
  Proof.
    intros Hok.
    rewrite (Qsum_map_ext _ (fun i => Qsum (map (transfer q k i) (nbrs i)))) by (intros; apply delta_sum).
    rewrite (double_sum (transfer q k) Hok).
    apply Qsum_map_zero. intros b _. apply transfer_antisym.
  Qed.

  Lemma is0_iff x : is0 ops x = true <-> x == 0.
  Proof. unfold is0. rewrite (l_eqb ops L), (l_zero ops L). reflexivity. Qed.

  (* what one cycle adds to atom i besides the transfers *)
  Definition share (i : nat) : Q :=
    if is0 ops abs_qges then 0 else (1 / inject_Z (Z.of_nat ncyc)) * efc i.

  Lemma cycle_sum q k :
    bonds_ok n bonds = true -> length q = n ->
    Qsum (cycle q k) == Qsum q + Qsum (map share (seq 0 n)).
  Proof.
    intros Hok Hlen. unfold Peoe.cycle, atoms, share. cbv zeta.
    set (qf := fun i => nth i q (a_zero ops)).
    rewrite (Qsum_map_ext _ (fun i => qf i + (delta qf k i +
              (if is0 ops abs_qges then 0 else 1 / inject_Z (Z.of_nat ncyc) * efc i)))).
    2:{ intros i _. cbv beta. destruct (is0 ops abs_qges).
        - rewrite (l_add ops L). unfold qf. ring.
        - rewrite !(l_add ops L), (l_mul ops L), (l_div ops L), (l_one ops L), (l_ofZ ops L). reflexivity. }
    rewrite Qsum_map_plus, Qsum_map_plus, (delta_total qf k Hok).
    unfold qf. rewrite <- Hlen at 1. rewrite map_nth_seq. ring.
  Qed.

  Lemma cycles_sum q k m :
    bonds_ok n bonds = true -> length q = n ->
    Qsum (cycles q k m) == Qsum q + inject_Z (Z.of_nat m) * Qsum (map share (seq 0 n)).
  Proof.
    intros Hok. revert q k. induction m as [|m IH]; intros q k Hlen.
    - cbn [Peoe.cycles]. change (inject_Z (Z.of_nat 0)) with 0. ring.
    - cbn [Peoe.cycles]. rewrite IH by apply cycle_length. rewrite (cycle_sum q k Hok Hlen).
      rewrite Nat2Z.inj_succ, <- Z.add_1_r, inject_Z_plus. ring.
  Qed.

  (* what a charged atom adds to abs_qges *)
  Local Notation mag := (fun i => if is0 ops (ch i) then 0 else Qabs (ch i)).

  Lemma abs_fold (l : list nat) (z : Q) :
    fold_left (fun acc i => if is0 ops (ch i) then acc else a_add ops acc (a_abs ops (ch i))) l z ==
    z + Qsum (map mag l).
  Proof.
    revert z. induction l as [|i l IH]; intros z; cbn [fold_left map Qsum]; [ring|].
    rewrite IH. destruct (is0 ops (ch i)); [ring|]. rewrite (l_add ops L), (l_abs ops L). ring.
  Qed.

  Lemma abs_qges_sum :
    abs_qges == Qsum (map mag (seq 0 n)).
  Proof. unfold Peoe.abs_qges, atoms. rewrite abs_fold, (l_zero ops L). ring. Qed.

  (* abs_qges == 0 exactly when there is no charged atom *)
  Lemma abs_qges_zero_iff :
    is0 ops abs_qges = true <-> (forall i, (i < n)%nat -> ch i == 0).
  Proof.
    rewrite is0_iff, abs_qges_sum. split.
    - intros Hs i Hi.
      assert (H0 : (if is0 ops (ch i) then 0 else Qabs (ch i)) == 0).
      { apply (Qsum_map_nonneg_zero mag (seq 0 n)); [|exact Hs|apply in_seq; lia].
        intros j _. destruct (is0 ops (ch j)); [apply Qle_refl | apply Qabs_nonneg]. }
      destruct (is0 ops (ch i)) eqn:E; [now apply is0_iff|].
      assert (Hle : Qabs (ch i) <= 0) by (rewrite H0; apply Qle_refl).
      apply Qabs_Qle_condition in Hle. destruct Hle as [H1 H2]. lra.
    - intros Hall. apply Qsum_map_zero. intros i Hi. apply in_seq in Hi.
      destruct (is0 ops (ch i)) eqn:E; [reflexivity|].
      rewrite (Hall i) by lia. reflexivity.
  Qed.

  Lemma efc_eq i : efc i == ch i * (1 / scale).
  Proof.
    unfold Peoe.efc. destruct (is0 ops (ch i)) eqn:E.
    - apply is0_iff in E. rewrite E, (l_zero ops L). ring.
    - rewrite (l_mul ops L), (l_div ops L), (l_one ops L). reflexivity.
  Qed.

  Lemma zeros_sum m : Qsum (repeat (a_zero ops) m) == 0.
  Proof. induction m as [|m IH]; cbn [repeat Qsum]; [reflexivity|]. rewrite IH, (l_zero ops L). ring. Qed.

  Lemma equilibrate_sum :
    Qsum (equilibrate ops chi n ty bonds ch damp scale ncyc) == scale * Qsum (cycles (repeat (a_zero ops) n) 0 ncyc).
  Proof.
    unfold Peoe.equilibrate.
    rewrite (Qsum_map_ext _ (fun x => scale * x)) by (intros; apply (l_mul ops L)).
    rewrite Qsum_map_scale, map_id. reflexivity.
  Qed.

  Theorem peoe_conserves :
    bonds_ok n bonds = true -> ~ scale == 0 -> ncyc <> 0%nat ->
    Qsum (equilibrate ops chi n ty bonds ch damp scale ncyc) == Qsum (map ch (seq 0 n)).
  Proof.
    intros Hok Hscale Hn.
    rewrite equilibrate_sum, (cycles_sum _ _ _ Hok), zeros_sum by apply repeat_length. unfold share.
    destruct (is0 ops abs_qges) eqn:E.
    - pose proof (proj1 abs_qges_zero_iff E) as E'.
      rewrite (Qsum_map_zero ch) by (intros i Hi; apply in_seq in Hi; apply E'; lia).
      rewrite Qsum_map_zero by reflexivity. ring.
    - rewrite Qsum_map_scale.
      rewrite (Qsum_map_ext efc (fun i => (1 / scale) * ch i)) by (intros; rewrite efc_eq; ring).
      rewrite Qsum_map_scale.
      assert (Hc : ~ inject_Z (Z.of_nat ncyc) == 0).
      { intro H. apply Hn. unfold Qeq in H. cbn in H. lia. }
      field. split; assumption.
  Qed.

  (* with zero cycles the loop body is never entered ([cycles _ _ 0] is the
     initial all-zero list): the returned charges sum to 0, whatever [ch] is *)
  Lemma peoe_zero_cycles :
    ncyc = 0%nat -> Qsum (equilibrate ops chi n ty bonds ch damp scale ncyc) == 0.
  Proof.
    intros H. rewrite equilibrate_sum, H. cbn [Peoe.cycles]. rewrite zeros_sum. ring.
  Qed.
End Conservation.

Lemma sigma_inj n (sigma tau : nat -> nat) :
  (forall i, (i < n)%nat -> tau (sigma i) = i) ->
  forall i j, (i < n)%nat -> (j < n)%nat -> (sigma i =? sigma j)%nat = (i =? j)%nat.
Proof.
  intros Hts i j Hi Hj. destruct (Nat.eqb_spec i j) as [->|Hne]; [apply Nat.eqb_refl|].
  apply Nat.eqb_neq. intro H. apply Hne. rewrite <- (Hts i Hi), <- (Hts j Hj), H. reflexivity.
Qed.

Section Equivariance.
  Context (ops : Arith Q) (L : QLaws ops).
  Context {T : Type} (chi : T -> Q -> Q).
  Context (n : nat) (ty : nat -> T) (bonds : list (nat * nat)) (ch : nat -> Q).
  Context (damp scale : Q) (ncyc : nat).
  (* old position -> new position and back *)
  Context (sigma tau : nat -> nat).
  Context (Hsigma : forall i, (i < n)%nat -> (sigma i < n)%nat).
  Context (Htau : forall k, (k < n)%nat -> (tau k < n)%nat).
  Context (Hts : forall i, (i < n)%nat -> tau (sigma i) = i).
  Context (Hok : bonds_ok n bonds = true).

  Definition ty' : nat -> T := fun k => ty (tau k).
  Definition ch' : nat -> Q := fun k => ch (tau k).
  Definition bonds' : list (nat * nat) := map (fun b => (sigma (fst b), sigma (snd b))) bonds.

  Lemma bonds'_ok : bonds_ok n bonds' = true.
  Proof.
    unfold bonds_ok, bonds'. apply forallb_forall. intros b' Hin.
    apply in_map_iff in Hin as [b [<- Hin]]. destruct (bonds_ok_in n bonds b Hok Hin) as [Ha Hb].
    cbn [fst snd]. apply andb_true_iff. split; apply Nat.ltb_lt; apply Hsigma; assumption.
  Qed.

  Lemma nbrs' i : (i < n)%nat -> nbrs bonds' (sigma i) = map sigma (nbrs bonds i).
  Proof.
    intros Hi. unfold nbrs, bonds'. apply flat_map_map_in. intros b Hb.
    destruct (bonds_ok_in n bonds b Hok Hb) as [Ha Hc]. cbn [fst snd].
    rewrite !(sigma_inj n sigma tau Hts) by assumption. rewrite map_app.
    destruct (fst b =? i)%nat; destruct (snd b =? i)%nat; reflexivity.
  Qed.

  Local Notation transfer0 := (transfer ops chi ty damp).
  Local Notation transfer1 := (transfer ops chi ty' damp).
  Local Notation delta0 := (delta ops chi ty bonds damp).
  Local Notation delta1 := (delta ops chi ty' bonds' damp).

  Lemma transfer_rel (q q' : nat -> Q) k i j :
    (i < n)%nat -> (j < n)%nat -> q' (sigma i) = q i -> q' (sigma j) = q j ->
    transfer1 q' k (sigma i) (sigma j) = transfer0 q k i j.
  Proof.
    intros Hi Hj Hqi Hqj. unfold transfer, ty'. rewrite !Hts, Hqi, Hqj by assumption. reflexivity.
  Qed.

  Lemma delta_rel (q q' : nat -> Q) k i :
    (i < n)%nat -> (forall j, (j < n)%nat -> q' (sigma j) = q j) ->
    delta1 q' k (sigma i) = delta0 q k i.
  Proof.
    intros Hi Hq. unfold delta. rewrite nbrs', fold_left_map by assumption.
    apply fold_left_ext_in. intros a j Hj. apply (nbrs_lt n bonds i j Hok) in Hj.
    rewrite (transfer_rel q q' k i j) by (try assumption; apply Hq; assumption). reflexivity.
  Qed.

  Lemma abs_rel : is0 ops (abs_qges ops n ch') = is0 ops (abs_qges ops n ch).
  Proof.
    pose proof (abs_qges_zero_iff ops L n ch) as H0.
    pose proof (abs_qges_zero_iff ops L n ch') as H1.
    destruct (is0 ops (abs_qges ops n ch')) eqn:E1; destruct (is0 ops (abs_qges ops n ch)) eqn:E0;
      try reflexivity; exfalso.
    - assert (H : forall i, (i < n)%nat -> ch i == 0).
      { intros i Hi. rewrite <- (Hts i Hi). apply (proj1 H1 eq_refl (sigma i)). apply Hsigma, Hi. }
      apply H0 in H. discriminate.
    - assert (H : forall k, (k < n)%nat -> ch' k == 0).
      { intros k Hk. unfold ch'. apply (proj1 H0 eq_refl). apply Htau, Hk. }
      apply H1 in H. discriminate.
  Qed.

  Local Notation cycle0 := (cycle ops chi n ty bonds ch damp scale ncyc).
  Local Notation cycle1 := (cycle ops chi n ty' bonds' ch' damp scale ncyc).
  Local Notation cycles0 := (cycles ops chi n ty bonds ch damp scale ncyc).
  Local Notation cycles1 := (cycles ops chi n ty' bonds' ch' damp scale ncyc).

  Definition related (q q' : list Q) : Prop :=
    forall j, (j < n)%nat -> nth (sigma j) q' (a_zero ops) = nth j q (a_zero ops).

  Lemma cycle_rel q q' k : related q q' -> related (cycle0 q k) (cycle1 q' k).
  Proof.
    intros Hq i Hi. unfold cycle, atoms.
    rewrite !nth_map_seq by (try apply Hsigma; assumption).
    rewrite abs_rel.
    rewrite (delta_rel (fun i => nth i q (a_zero ops)) (fun i => nth i q' (a_zero ops)) k i Hi Hq).
    rewrite (Hq i Hi). unfold efc, ch'. rewrite (Hts i Hi). reflexivity.
  Qed.

  Lemma cycles_rel q q' k m : related q q' -> related (cycles0 q k m) (cycles1 q' k m).
  Proof.
    revert q q' k. induction m as [|m IH]; intros q q' k Hq; cbn [cycles]; [exact Hq|].
    apply IH, cycle_rel, Hq.
  Qed.

  (* the charge computed for the atom at new position sigma i is the charge
     computed for the atom at old position i - identical, not just close *)
  Theorem peoe_equivariant i :
    (i < n)%nat ->
    nth_error (equilibrate ops chi n ty' bonds' ch' damp scale ncyc) (sigma i) =
    nth_error (equilibrate ops chi n ty bonds ch damp scale ncyc) i.
  Proof.
    intros Hi. unfold equilibrate.
    assert (Hrel : related (cycles0 (repeat (a_zero ops) n) 0 ncyc) (cycles1 (repeat (a_zero ops) n) 0 ncyc)).
    { apply cycles_rel. intros j Hj. rewrite !nth_repeat. reflexivity. }
    rewrite !nth_error_map.
    rewrite (nth_error_nth' _ (a_zero ops)) by (rewrite cycles_length; [apply Hsigma, Hi | apply repeat_length]).
    rewrite (nth_error_nth' _ (a_zero ops)) by (rewrite cycles_length; [exact Hi | apply repeat_length]).
    rewrite (Hrel i Hi). reflexivity.
  Qed.
End Equivariance.

Lemma lookup_in {V} k (l : list (string * V)) v : lookup k l = Some v -> In (k, v) l.
Proof.
  induction l as [|[k' v'] l IH]; cbn [lookup]; [discriminate|].
  destruct (String.eqb_spec k k') as [->|Hne]; intros H.
  - injection H as ->. now left.
  - right. exact (IH H).
Qed.

Lemma radius_of_from t : radius_of t = radius_from ZAP9 BONDI t.
Proof. reflexivity. Qed.

Lemma radius_from_in p s t r :
  radius_from p s t = Some r ->
  In (t, r) p \/ In (upper (before_dot t), r) p \/ In (t, r) s \/ In (upper (before_dot t), r) s.
Proof.
  unfold radius_from.
  destruct (lookup t p) eqn:E1; [intros [= <-]; auto using lookup_in|].
  destruct (lookup (upper (before_dot t)) p) eqn:E2; [intros [= <-]; auto using lookup_in|].
  destruct (lookup t s) eqn:E3; [intros [= <-]; auto using lookup_in|].
  auto 6 using lookup_in.
Qed.

Theorem radius_rule (p s : list (string * Z)) (t : string) :
  let e := upper (before_dot t) in
  (forall r, lookup t p = Some r -> radius_from p s t = Some r) /\
  (lookup t p = None -> forall r, lookup e p = Some r -> radius_from p s t = Some r) /\
  (lookup t p = None -> lookup e p = None -> radius_from p s t = radius_from s [] t) /\
  (radius_from p s t = None <->
     lookup t p = None /\ lookup e p = None /\ lookup t s = None /\ lookup e s = None) /\
  (forall s', (lookup t p <> None \/ lookup e p <> None) -> radius_from p s t = radius_from p s' t).
Proof.
  cbv zeta. unfold radius_from. cbn [lookup]. split; [|split; [|split; [|split]]].
  - now intros r ->.
  - now intros -> r ->.
  - intros -> ->. destruct (lookup t s); [reflexivity|]. now destruct (lookup _ s).
  - split; [|now intros (-> & -> & -> & ->)].
    destruct (lookup t p); [discriminate|]. destruct (lookup _ p); [discriminate|].
    destruct (lookup t s); [discriminate|]. auto.
  - intros s' H. destruct (lookup t p); [reflexivity|]. destruct (lookup _ p); [reflexivity|].
    destruct H; congruence.
Qed.

Definition all_positive (l : list (string * Z)) : bool := forallb (fun kv => (0 <? snd kv)%Z) l.

Lemma tables_positive : all_positive ZAP9 = true /\ all_positive BONDI = true.
Proof. split; vm_compute; reflexivity. Qed.

Lemma in_positive k l r : all_positive l = true -> In (k, r) l -> (0 < r)%Z.
Proof.
  unfold all_positive. rewrite forallb_forall. intros Hall Hin. exact (proj1 (Z.ltb_lt _ _) (Hall _ Hin)).
Qed.

Theorem radius_positive t r :
  radius_of t = Some r ->
  (0 < r)%Z /\
  (In (t, r) ZAP9 \/ In (upper (before_dot t), r) ZAP9 \/
   In (t, r) BONDI \/ In (upper (before_dot t), r) BONDI).
Proof.
  rewrite radius_of_from. intros H. apply radius_from_in in H. split; [|exact H].
  destruct tables_positive as [Hz Hb].
  destruct H as [H|[H|[H|H]]]; eauto using in_positive.
Qed.

(* every supported Sybyl type has a radius, a valence, a non-bonded count and
   polynomial terms, and its normaliser chi(+1) is positive *)
Definition supported_ok (t : string) : bool :=
  match radius_of t, lookup (before_dot t) VALENCE, lookup t NONBONDED2, poly_terms QA t with
  | Some r, Some _, Some _, Some _ =>
      (0 <? r)%Z && negb (Qle_bool (chi_code QA t (a_ofZ QA 1)) 0)
  | _, _, _, _ => false
  end.

Lemma supported_table : forallb supported_ok SUPPORTED = true.
Proof. vm_compute. reflexivity. Qed.

Theorem supported_complete t :
  In t SUPPORTED ->
  (exists r, radius_of t = Some r /\ (0 < r)%Z) /\
  lookup (before_dot t) VALENCE <> None /\ lookup t NONBONDED2 <> None /\
  poly_terms QA t <> None /\ 0 < chi_code QA t (a_ofZ QA 1).
Proof.
  intros Hin. pose proof supported_table as H. rewrite forallb_forall in H.
  specialize (H t Hin). unfold supported_ok in H.
  destruct (radius_of t) as [r|]; [|discriminate].
  destruct (lookup (before_dot t) VALENCE); [|discriminate].
  destruct (lookup t NONBONDED2); [|discriminate].
  destruct (poly_terms QA t); [|discriminate].
  apply andb_true_iff in H as [Hr Hc]. apply Z.ltb_lt in Hr.
  repeat split; try discriminate.
  - exists r. split; [reflexivity | exact Hr].
  - apply Qnot_le_lt. intro Hle. apply Qle_bool_iff in Hle. rewrite Hle in Hc. discriminate.
Qed.

Lemma scaling_nonzero : ~ scaling QA == 0.
Proof. intro H. vm_compute in H. discriminate H. Qed.

Lemma assign_parameters_n_Some {A} (ops : Arith A) (m : mol) (ncyc : nat) radii fc2 :
  mol_ok m = true -> all_some (map radius_of (m_types m)) = Some radii -> formal_charges2 m = Some fc2 ->
  forallb (fun t => match lookup (terms_key t) POLY with Some _ => true | None => false end) (m_types m) = true ->
  assign_parameters_n ops m ncyc =
  Some (combine radii (equilibrate_code ops m fc2 (damping ops) (scaling ops) ncyc)).
Proof. unfold assign_parameters_n. intros -> -> -> ->. reflexivity. Qed.

Theorem assign_parameters_sound (m : mol) (ncyc : nat) (ps : list (Z * Q)) :
  ncyc <> 0%nat ->
  assign_parameters_n QA m ncyc = Some ps ->
  exists fc2,
    formal_charges2 m = Some fc2 /\
    length ps = m_n m /\
    (forall p, In p ps -> (0 < fst p)%Z) /\
    map (fun p => Some (fst p)) ps = map radius_of (m_types m) /\
    Qsum (map snd ps) == Qsum (map (fun z => half QA z) fc2).
Proof.
  intros Hn. unfold assign_parameters_n.
  destruct (mol_ok m) eqn:Hok; [|discriminate]. cbn [negb].
  destruct (all_some (map radius_of (m_types m))) as [radii|] eqn:Hr; [|discriminate].
  destruct (formal_charges2 m) as [fc2|] eqn:Hf; [|discriminate].
  destruct (forallb _ (m_types m)); [|discriminate]. cbn [negb].
  set (qs := equilibrate_code QA m fc2 _ _ ncyc). intros [= <-]. exists fc2. apply all_some_map in Hr.
  pose proof (all_some_length _ _ Hf) as Lf. rewrite map_length, seq_length in Lf.
  assert (Lq : length qs = m_n m) by apply equilibrate_length.
  assert (Lr : length radii = length qs).
  { rewrite Lq. apply (f_equal (@length _)) in Hr. rewrite !map_length in Hr. symmetry. exact Hr. }
  split; [reflexivity|].
  split; [rewrite combine_length, Lr, Nat.min_id; exact Lq|].
  split; [|split].
  - intros p Hp. apply (in_map fst) in Hp. rewrite (map_fst_combine _ _ Lr) in Hp.
    assert (Hin : In (Some (fst p)) (map radius_of (m_types m))) by (rewrite Hr; now apply in_map).
    apply in_map_iff in Hin as [t [Ht _]]. exact (proj1 (radius_positive _ _ Ht)).
  - rewrite Hr, <- (map_map fst Some), (map_fst_combine _ _ Lr). reflexivity.
  - rewrite (map_snd_combine _ _ Lr).
    unfold qs, equilibrate_code. unfold mol_ok in Hok.
    rewrite (peoe_conserves QA QA_laws (chi_code QA) (m_n m) (m_ty m) (m_pairs m) _ _ _ ncyc Hok scaling_nonzero Hn).
    rewrite <- (map_map (fun i => nth i fc2 0%Z) (fun z => half QA z)).
    rewrite <- Lf, map_nth_seq. reflexivity.
Qed.

(* The ligand transfer loop of main.non_trivial.  [sub a b]: a is b with some
   elements left out, order kept; it carries NoDup from the atoms of the
   structure down to whatever part of them the loop visits. *)

Inductive sub {X : Type} : list X -> list X -> Prop :=
| sub_nil : sub [] []
| sub_skip x l' l : sub l' l -> sub l' (x :: l)
| sub_keep x l' l : sub l' l -> sub (x :: l') (x :: l).

Lemma sub_nil_l {X} (l : list X) : sub [] l.
Proof. induction l; constructor; assumption. Qed.

Lemma sub_refl {X} (l : list X) : sub l l.
Proof. induction l; constructor; assumption. Qed.

Lemma sub_filter {X} (p : X -> bool) l : sub (filter p l) l.
Proof. induction l as [|x l IH]; cbn [filter]; [constructor|]. destruct (p x); constructor; exact IH. Qed.

Lemma sub_trans {X} (a b c : list X) : sub a b -> sub b c -> sub a c.
Proof.
  intros Hab Hbc. revert a Hab. induction Hbc as [|x b c Hbc IH|x b c Hbc IH]; intros a Hab.
  - exact Hab.
  - constructor. apply IH, Hab.
  - inversion Hab as [|y a' b' Ha|y a' b' Ha]; subst.
    + constructor. apply IH, Ha.
    + apply sub_keep. apply IH, Ha.
Qed.

Lemma sub_app {X} (a b c d : list X) : sub a b -> sub c d -> sub (a ++ c) (b ++ d).
Proof. intros Hab Hcd. induction Hab; cbn [app]; [exact Hcd | constructor; assumption | constructor; assumption]. Qed.

Lemma sub_flat_map {X Y} (f g : X -> list Y) l : (forall x, sub (f x) (g x)) -> sub (flat_map f l) (flat_map g l).
Proof. intros H. induction l as [|x l IH]; cbn [flat_map]; [constructor | apply sub_app; [apply H | exact IH]]. Qed.

Lemma sub_map {X Y} (f : X -> Y) a b : sub a b -> sub (map f a) (map f b).
Proof. intros H. induction H; cbn [map]; constructor; assumption. Qed.

Lemma sub_In {X} (a b : list X) x : sub a b -> In x a -> In x b.
Proof.
  intros H. induction H as [|y a b H IH|y a b H IH]; cbn [In]; intros Hx; [exact Hx | right; exact (IH Hx)|].
  destruct Hx as [->|Hx]; [now left | right; exact (IH Hx)].
Qed.

Lemma sub_NoDup {X} (a b : list X) : sub a b -> NoDup b -> NoDup a.
Proof.
  intros H. induction H as [|y a b H IH|y a b H IH]; intros Hb.
  - exact Hb.
  - inversion Hb; subst. now apply IH.
  - inversion Hb as [|z l Hni Hnd]; subst. constructor; [|now apply IH].
    intro Hin. apply Hni. exact (sub_In _ _ _ H Hin).
Qed.

Lemma sub_app_l {X} (a b : list X) : sub a (a ++ b).
Proof. rewrite <- (app_nil_r a) at 1. apply sub_app; [apply sub_refl | apply sub_nil_l]. Qed.

Lemma sub_app_r {X} (a b : list X) : sub b (a ++ b).
Proof. change b with ([] ++ b)%list at 1. apply sub_app; [apply sub_nil_l | apply sub_refl]. Qed.

Lemma NoDup_flat_map_same {X Y K} (f : X -> list Y) (key : Y -> K) l x x' y y' :
  NoDup (map key (flat_map f l)) -> In x l -> In x' l -> In y (f x) -> In y' (f x') -> key y = key y' -> x = x'.
Proof.
  intros Hnd Hx Hx' Hy Hy' Hk. induction l as [|x0 l IH]; [contradiction|].
  cbn [flat_map] in Hnd. rewrite map_app in Hnd.
  assert (Hl : forall z y1 y2, In z l -> In y1 (f x0) -> In y2 (f z) -> key y1 = key y2 -> False).
  { intros z y1 y2 Hz H1 H2 E. apply (NoDup_app_In _ _ (key y1) Hnd); [now apply in_map|].
    rewrite E. apply in_map, in_flat_map. exists z. split; assumption. }
  destruct Hx as [->|Hx]; destruct Hx' as [->|Hx']; [reflexivity | | |].
  - exfalso. exact (Hl x' y y' Hx' Hy Hy' Hk).
  - exfalso. exact (Hl x y' y Hx Hy' Hy (eq_sym Hk)).
  - apply IH; [exact (sub_NoDup _ _ (sub_app_r _ _) Hnd) | assumption..].
Qed.

Section TransferProofs.
  Context {P : Type}.
  Local Notation patom := (patom P).
  Local Notation presidue := (presidue P).
  Context (lig : list (string * P)).

  (* atoms of one residue the loop looks at: up to the first ATOM-typed atom *)
  Fixpoint het_prefix (l : list patom) : list patom :=
    match l with
    | [] => []
    | a :: r => if pa_het a then a :: het_prefix r else []
    end.

  Definition named (a : patom) : bool :=
    match lookup (pa_name a) lig with Some _ => true | None => false end.

  (* atoms of one residue that receive ligand parameters when it is visited *)
  Definition vis (l : list patom) : list patom := filter named (het_prefix l).

  Definition all_atoms (rs : list presidue) : list patom := flat_map pr_atoms rs.

  Lemma sub_het_prefix l : sub (het_prefix l) l.
  Proof.
    induction l as [|a l IH]; cbn [het_prefix]; [constructor|].
    destruct (pa_het a); [constructor; exact IH | apply sub_nil_l].
  Qed.

  Lemma sub_vis l : sub (vis l) l.
  Proof. exact (sub_trans _ _ _ (sub_filter _ _) (sub_het_prefix l)). Qed.

  (* state after the inner loop over one residue *)
  Lemma visit_lig st l : ts_lig (visit_atoms lig st l) = (ts_lig st ++ map pa_id (vis l))%list.
  Proof.
    revert st. unfold vis. induction l as [|a l IH]; intros st; cbn [visit_atoms het_prefix filter map].
    - now rewrite app_nil_r.
    - destruct (pa_het a); cbn [negb filter map]; [|now rewrite app_nil_r].
      unfold named at 1. destruct (lookup (pa_name a) lig) as [p|]; rewrite IH; cbn [ts_lig map].
      + now rewrite <- app_assoc.
      + reflexivity.
  Qed.

  Lemma visit_param_other st l i :
    (forall a, In a (vis l) -> pa_id a <> i) ->
    ts_param (visit_atoms lig st l) i = ts_param st i.
  Proof.
    revert st. unfold vis. induction l as [|a l IH]; intros st Hne; cbn [visit_atoms]; [reflexivity|].
    cbn [het_prefix] in Hne. destruct (pa_het a); cbn [negb]; [|reflexivity].
    cbn [filter] in Hne. unfold named at 1 in Hne.
    destruct (lookup (pa_name a) lig) as [p|].
    - rewrite IH by (intros b Hb; apply Hne; now right). cbn [ts_param].
      destruct (Nat.eqb_spec i (pa_id a)) as [->|]; [|reflexivity].
      exfalso. exact (Hne a (or_introl eq_refl) eq_refl).
    - rewrite IH by exact Hne. reflexivity.
  Qed.

  Lemma visit_param_hit st l a p :
    NoDup (map pa_id l) -> In a (vis l) -> lookup (pa_name a) lig = Some p ->
    ts_param (visit_atoms lig st l) (pa_id a) = Some p.
  Proof.
    revert st. unfold vis. induction l as [|b l IH]; intros st Hnd Hin Hp; cbn [het_prefix filter] in Hin; [contradiction|].
    cbn [visit_atoms]. cbn [map] in Hnd. inversion Hnd as [|x y Hni Hnd']; subst.
    destruct (pa_het b); cbn [negb]; [|contradiction].
    cbn [filter] in Hin. unfold named at 1 in Hin.
    destruct (lookup (pa_name b) lig) as [pb|] eqn:Eb.
    - destruct Hin as [->|Hin].
      + rewrite visit_param_other.
        * cbn [ts_param]. rewrite Nat.eqb_refl. congruence.
        * intros c Hc Heq. apply Hni. rewrite <- Heq. apply in_map. exact (sub_In _ _ _ (sub_vis l) Hc).
      + apply IH; assumption.
    - apply IH; assumption.
  Qed.

  Lemma ff_param_in rs a :
    NoDup (map pa_id (all_atoms rs)) -> In a (all_atoms rs) -> ff_param rs (pa_id a) = pa_ff a.
  Proof.
    unfold ff_param, all_atoms. generalize (flat_map pr_atoms rs) as l.
    induction l as [|b l IH]; cbn [map find In]; intros Hnd Hin; [contradiction|].
    inversion Hnd as [|x y Hni Hnd']; subst.
    destruct Hin as [->|Hin]; [now rewrite Nat.eqb_refl|].
    destruct (Nat.eqb_spec (pa_id b) (pa_id a)) as [Heq|Hne]; [|now apply IH].
    exfalso. apply Hni. rewrite Heq. now apply in_map.
  Qed.

  Lemma nmem_In i l : nmem i l = true <-> In i l.
  Proof.
    unfold nmem. rewrite existsb_exists. split.
    - intros [x [Hx He]]. apply Nat.eqb_eq in He. now subst.
    - intros H. exists i. split; [exact H | apply Nat.eqb_refl].
  Qed.

  (* the loop of pdb2pqr from commit 30237b0 on (repair of finding C16-F4):
     only the selected residues are visited *)
  Section Selected.
    Context (names : list string).        (* lig_names: the selected residue names *)

    (* what the loop visits in one residue *)
    Definition rvis (r : presidue) : list patom :=
      if selected names r then vis (pr_atoms r) else [].
    Definition all_vis (rs : list presidue) : list patom := flat_map rvis rs.
    (* the atoms of the selected residues = "the ligand's atoms" *)
    Definition ligand_ids (rs : list presidue) : list nat :=
      map pa_id (flat_map pr_atoms (filter (selected names) rs)).

    Local Notation step := (fun st r => if selected names r then visit_atoms lig st (pr_atoms r) else st).

    Lemma sub_rvis r : sub (rvis r) (pr_atoms r).
    Proof. unfold rvis. destruct (selected names r); [apply sub_vis | apply sub_nil_l]. Qed.

    Lemma sub_all_vis rs : sub (all_vis rs) (all_atoms rs).
    Proof. apply sub_flat_map. intros r. apply sub_rvis. Qed.

    Lemma step_lig st r : ts_lig (step st r) = (ts_lig st ++ map pa_id (rvis r))%list.
    Proof. unfold rvis. destruct (selected names r); [apply visit_lig | now rewrite app_nil_r]. Qed.

    Lemma step_param_other st r i :
      (forall a, In a (rvis r) -> pa_id a <> i) -> ts_param (step st r) i = ts_param st i.
    Proof. unfold rvis. destruct (selected names r); intros H; [now apply visit_param_other | reflexivity]. Qed.

    Lemma loop_lig_gen rs st :
      ts_lig (fold_left step rs st) = (ts_lig st ++ map pa_id (all_vis rs))%list.
    Proof.
      revert st. induction rs as [|r rs IH]; intros st; cbn [fold_left all_vis flat_map map].
      - now rewrite app_nil_r.
      - rewrite IH, step_lig, map_app, app_assoc. reflexivity.
    Qed.

    Lemma loop_lig rs : ts_lig (transfer_loop_on names lig rs) = map pa_id (all_vis rs).
    Proof. unfold transfer_loop_on. rewrite loop_lig_gen. reflexivity. Qed.

    Lemma loop_param_other_gen rs st i :
      (forall a, In a (all_vis rs) -> pa_id a <> i) ->
      ts_param (fold_left step rs st) i = ts_param st i.
    Proof.
      revert st. induction rs as [|r rs IH]; intros st Hne; cbn [fold_left]; [reflexivity|].
      cbn [all_vis flat_map] in Hne.
      rewrite IH by (intros a Ha; apply Hne, in_or_app; now right).
      apply step_param_other. intros a Ha. apply Hne, in_or_app. now left.
    Qed.

    Lemma loop_param_hit_gen rs st a p :
      NoDup (map pa_id (all_atoms rs)) -> In a (all_vis rs) -> lookup (pa_name a) lig = Some p ->
      ts_param (fold_left step rs st) (pa_id a) = Some p.
    Proof.
      revert st. induction rs as [|r rs IH]; intros st Hnd Hin Hp; cbn [all_vis flat_map] in Hin; [contradiction|].
      cbn [fold_left]. cbn [all_atoms flat_map] in Hnd. rewrite map_app in Hnd.
      apply in_app_or in Hin as [Hin|Hin].
      - rewrite loop_param_other_gen.
        + unfold rvis in Hin. destruct (selected names r); [|contradiction].
          apply visit_param_hit; [exact (sub_NoDup _ _ (sub_app_l _ _) Hnd) | exact Hin | exact Hp].
        + intros b Hb Heq.
          apply (NoDup_app_In _ _ (pa_id a) Hnd).
          * apply in_map. exact (sub_In _ _ _ (sub_rvis _) Hin).
          * rewrite <- Heq. apply in_map. exact (sub_In _ _ _ (sub_all_vis rs) Hb).
      - apply IH; [exact (sub_NoDup _ _ (sub_app_r _ _) Hnd) | exact Hin | exact Hp].
    Qed.

    (* whatever the loop touches lies in a selected residue *)
    Lemma vis_in_ligand rs a : In a (all_vis rs) -> In (pa_id a) (ligand_ids rs).
    Proof.
      unfold all_vis, ligand_ids. intros Hin. apply in_flat_map in Hin as [r [Hr Ha]].
      unfold rvis in Ha. destruct (selected names r) eqn:Hs; [|contradiction].
      apply in_map, in_flat_map. exists r. split.
      - apply filter_In. split; assumption.
      - exact (sub_In _ _ _ (sub_vis _) Ha).
    Qed.

    (* (1) every atom line whose atom is outside the selected residues carries
           the force field's parameters,
       (2) no atom is written twice,
       (3) each atom of a selected residue (up to its first ATOM record) that
           the MOL2 file names is written with the MOL2 parameters, exactly once *)
    Definition transfer_only_ligand_on (rs : list presidue) : Prop :=
      (forall i w, ~ In i (ligand_ids rs) -> In (i, w) (written_on names lig rs) -> w = ff_param rs i) /\
      NoDup (map fst (written_on names lig rs)) /\
      (forall r a p, In r rs -> selected names r = true -> In a (het_prefix (pr_atoms r)) ->
                     lookup (pa_name a) lig = Some p ->
                     In (pa_id a, Some p) (written_on names lig rs) /\
                     count_occ Nat.eq_dec (map fst (written_on names lig rs)) (pa_id a) = 1%nat).

    Lemma written_ids rs :
      map fst (written_on names lig rs) =
      (ff_hits rs ++ filter (fun i => negb (nmem i (ff_hits rs))) (map pa_id (all_vis rs)))%list.
    Proof. unfold written_on. rewrite loop_lig, map_map. cbn [fst]. now rewrite map_id. Qed.

    Lemma written_nodup rs : NoDup (map pa_id (all_atoms rs)) -> NoDup (map fst (written_on names lig rs)).
    Proof.
      intros Hnd. rewrite written_ids. apply NoDup_app_intro.
      - unfold ff_hits. fold (all_atoms rs). exact (sub_NoDup _ _ (sub_map pa_id _ _ (sub_filter _ _)) Hnd).
      - apply (sub_NoDup _ _ (sub_filter _ _)).
        exact (sub_NoDup _ _ (sub_map pa_id _ _ (sub_all_vis rs)) Hnd).
      - intros i H1 H2. apply filter_In in H2 as [_ H2]. apply negb_true_iff in H2.
        apply nmem_In in H1. congruence.
    Qed.

    Theorem transfer_only_ligand_on_holds rs :
      NoDup (map pa_id (all_atoms rs)) -> transfer_only_ligand_on rs.
    Proof.
      intros Hnd. split; [|split].
      - intros i w Hni Hin. unfold written_on in Hin. apply in_map_iff in Hin as [j [Hj _]]. injection Hj as -> <-.
        unfold transfer_loop_on. rewrite loop_param_other_gen; [reflexivity|].
        intros a Ha Heq. apply Hni. rewrite <- Heq. now apply vis_in_ligand.
      - now apply written_nodup.
      - intros r a p Hr Hs Ha Hp.
        assert (Hv : In a (all_vis rs)).
        { unfold all_vis. apply in_flat_map. exists r. split; [exact Hr|].
          unfold rvis. rewrite Hs. unfold vis. apply filter_In. split; [exact Ha|]. unfold named. now rewrite Hp. }
        assert (Hid : In (pa_id a) (map fst (written_on names lig rs))).
        { rewrite written_ids. apply in_or_app.
          destruct (nmem (pa_id a) (ff_hits rs)) eqn:Hm; [left; now apply nmem_In | right].
          apply filter_In. split; [now apply in_map | now rewrite Hm]. }
        split.
        + unfold written_on. unfold written_on in Hid. rewrite map_map in Hid. cbn [fst] in Hid. rewrite map_id in Hid.
          apply in_map_iff. exists (pa_id a). split; [|exact Hid].
          f_equal. unfold transfer_loop_on. now apply loop_param_hit_gen.
        + apply NoDup_count_occ'; [now apply written_nodup | exact Hid].
    Qed.

    (* a residue that is not selected is written exactly as without --ligand *)
    Lemma unselected_untouched rs r a w :
      NoDup (map pa_id (all_atoms rs)) -> In r rs -> selected names r = false -> In a (pr_atoms r) ->
      In (pa_id a, w) (written_on names lig rs) -> w = pa_ff a.
    Proof.
      intros Hnd Hr Hs Ha Hw.
      assert (Hall : In a (all_atoms rs)) by (apply in_flat_map; exists r; split; assumption).
      rewrite <- (ff_param_in rs a Hnd Hall).
      apply (proj1 (transfer_only_ligand_on_holds rs Hnd)); [|exact Hw].
      unfold ligand_ids. intro Hin. apply in_map_iff in Hin as [b [Hid Hb]].
      apply in_flat_map in Hb as [r' [Hr' Hb]]. apply filter_In in Hr' as [Hr' Hs'].
      rewrite (NoDup_flat_map_same pr_atoms pa_id rs r' r b a Hnd Hr' Hr Hb Ha Hid) in Hs'. congruence.
    Qed.
  End Selected.

  Lemma smem_In s l : smem s l = true <-> In s l.
  Proof.
    unfold smem. rewrite existsb_exists. split.
    - intros [x [Hx He]]. apply String.eqb_eq in He. now subst.
    - intros H. exists s. split; [exact H | apply String.eqb_refl].
  Qed.

  (* some residue carries a MOL2 residue name: exactly the residues with such a name are selected *)
  Lemma lig_names_by_name lnames heavy (rs : list presidue) :
    existsb (fun r : presidue => smem (pr_name r) lnames) rs = true ->
    lig_names lnames heavy lig rs = lnames.
  Proof. unfold lig_names. now intros ->. Qed.

  (* none does: a selected residue bears the name of a residue that the MOL2
     file describes atom by atom *)
  Lemma lig_names_fallback lnames heavy (rs : list presidue) (r : presidue) :
    existsb (fun r : presidue => smem (pr_name r) lnames) rs = false ->
    selected (lig_names lnames heavy lig rs) r = true ->
    exists r' : presidue, In r' rs /\ pr_name r' = pr_name r /\ describes heavy lig r' = true.
  Proof.
    unfold lig_names, selected. intros ->. rewrite smem_In, in_map_iff.
    intros [r' [Hn Hf]]. apply filter_In in Hf as [Hr' Hd]. exists r'. repeat split; assumption.
  Qed.

  (* main.non_trivial as coded: the property for the names the code computes *)
  Definition transfer_only_ligand (lnames heavy : list string) (rs : list presidue) : Prop :=
    transfer_only_ligand_on (lig_names lnames heavy lig rs) rs.

  Theorem transfer_only_ligand_holds lnames heavy rs :
    NoDup (map pa_id (all_atoms rs)) -> transfer_only_ligand lnames heavy rs.
  Proof. intros Hnd. apply transfer_only_ligand_on_holds, Hnd. Qed.

  (* waters, ions, other hetero groups: when the MOL2 residue name occurs in the
     structure, a residue with another name is written exactly as without
     --ligand, whatever its atoms are called *)
  Theorem other_residues_untouched lnames heavy (rs : list presidue) (r : presidue) (a : patom) w :
    NoDup (map pa_id (all_atoms rs)) ->
    existsb (fun r : presidue => smem (pr_name r) lnames) rs = true ->
    In r rs -> ~ In (pr_name r) lnames -> In a (pr_atoms r) ->
    In (pa_id a, w) (written lnames heavy lig rs) -> w = pa_ff a.
  Proof.
    intros Hnd Hex Hr Hn Ha Hw. unfold written in Hw. rewrite (lig_names_by_name _ _ _ Hex) in Hw.
    apply (unselected_untouched lnames rs r a w Hnd Hr); [|exact Ha|exact Hw].
    unfold selected. destruct (smem (pr_name r) lnames) eqn:E; [|reflexivity].
    exfalso. apply Hn. now apply smem_In.
  Qed.

  (* ... and when it does not (placeholder name), only residues named like one
     that consists of exactly the MOL2 file's heavy atoms (+ its hydrogens) *)
  Theorem other_residues_untouched_fallback lnames heavy (rs : list presidue) (r : presidue) (a : patom) w :
    NoDup (map pa_id (all_atoms rs)) ->
    existsb (fun r : presidue => smem (pr_name r) lnames) rs = false ->
    In r rs ->
    (forall r' : presidue, In r' rs -> pr_name r' = pr_name r -> describes heavy lig r' = false) ->
    In a (pr_atoms r) ->
    In (pa_id a, w) (written lnames heavy lig rs) -> w = pa_ff a.
  Proof.
    intros Hnd Hex Hr Hn Ha Hw. unfold written in Hw.
    apply (unselected_untouched (lig_names lnames heavy lig rs) rs r a w Hnd Hr); [|exact Ha|exact Hw].
    destruct (selected (lig_names lnames heavy lig rs) r) eqn:E; [|reflexivity].
    destruct (lig_names_fallback lnames heavy rs r Hex E) as [r' [H1 [H2 H3]]].
    rewrite (Hn r' H1 H2) in H3. discriminate.
  Qed.
End TransferProofs.

(* The input of finding C16-F4.  pdb2pqr before commit 30237b0 visited every
   HETATM-led residue: a water whose H1 shares its name with a ligand atom took
   the ligand's parameters and was written twice.  Parameters are (charge,
   radius) in 1/10000. *)
Local Open Scope string_scope.
Definition f4_lig : list (string * (Z * Z)) := [("C1", (-1200, 18700)%Z); ("H1", (650, 11000)%Z)].
Definition f4_complex : list (presidue (Z * Z)) :=
  [ mkpres "PRO" [mkpatom 0 false "N" (Some (-4157, 18240)); mkpatom 1 false "CA" (Some (337, 19080))];
    mkpres "LIG" [mkpatom 2 true "C1" None; mkpatom 3 true "H1" None];
    mkpres "HOH" [mkpatom 4 true "O" (Some (-8340, 17683)); mkpatom 5 true "H1" (Some (4170, 0));
                  mkpatom 6 true "H2" (Some (4170, 0))] ]%Z.

(* [transfer_loop_old]/[written_old] are the loop of pdb2pqr BEFORE commit
   30237b0, not pdb2pqr as it is *)
Theorem transfer_old_loop_refuted :
  exists (lnames : list string) (lig : list (string * (Z * Z))) (rs : list (presidue (Z * Z))),
    NoDup (map pa_id (all_atoms rs)) /\
    (exists i w, ~ In i (ligand_ids lnames rs) /\ In (i, w) (written_old lig rs) /\ w <> ff_param rs i) /\
    ~ NoDup (map fst (written_old lig rs)).
Proof.
  exists ["LIG"], f4_lig, f4_complex. split; [|split].
  - vm_compute. repeat constructor; cbn; intuition discriminate.
  - exists 5%nat, (Some (650, 11000)%Z). split; [|split].
    + vm_compute. intuition discriminate.
    + vm_compute. intuition.
    + vm_compute. discriminate.
  - (* the ids written are 0 1 4 5 6 2 3 5 *)
    intro H. apply (NoDup_remove_2 [0; 1; 4]%nat [6; 2; 3; 5]%nat 5%nat H). cbn. tauto.
Qed.

(* the inner part of the phosphate rule: the bond-order-1 oxygens met walking
   the bonds of atom p, and what the first of them makes the charge of atom i *)
Definition isO1 (m : mol) (a : nat) : bool := (first_char (m_ty m a) =? "O")%string && (bond_order m a =? 1)%Z.
Definition o_atoms (m : mol) (p : nat) : list nat :=
  flat_map (fun b => filter (isO1 m) [fst (fst b); snd (fst b)]) (atom_bonds m p).
Definition first_O (m : mol) (i p : nat) : option Z :=
  match o_atoms m p with [] => None | o :: _ => Some (if (o =? i)%nat then (-2)%Z else 0%Z) end.

Section FormalEquivariance.
  Context (m : mol) (sigma tau : nat -> nat).
  Local Notation n := (m_n m).
  Context (Hsigma : forall i, (i < n)%nat -> (sigma i < n)%nat).
  Context (Hts : forall i, (i < n)%nat -> tau (sigma i) = i).
  Context (Hok : mol_ok m = true).

  Definition rb (b : nat * nat * btype) : nat * nat * btype := (sigma (fst (fst b)), sigma (snd (fst b)), snd b).

  (* the same molecule with the atom at position i moved to position sigma i *)
  Definition relabel : mol :=
    mkmol (map (fun k => m_ty m (tau k)) (seq 0 n)) (map rb (m_bonds m)).

  Lemma relabel_n : m_n relabel = n.
  Proof. unfold m_n, relabel. cbn [m_types]. now rewrite map_length, seq_length. Qed.

  Lemma relabel_ty k : (k < n)%nat -> m_ty relabel k = m_ty m (tau k).
  Proof. intros Hk. unfold m_ty at 1. unfold relabel. cbn [m_types]. now rewrite nth_map_seq. Qed.

  Lemma ty_rel i : (i < n)%nat -> m_ty relabel (sigma i) = m_ty m i.
  Proof. intros Hi. rewrite relabel_ty by apply Hsigma, Hi. now rewrite Hts. Qed.

  Lemma atom_bonds_lt i b : In b (atom_bonds m i) -> (fst (fst b) < n)%nat /\ (snd (fst b) < n)%nat.
  Proof.
    unfold atom_bonds. intros H. apply in_flat_map in H as [b' [Hb' H]].
    assert (b = b') as ->.
    { apply in_app_or in H as [H|H].
      - destruct (fst (fst b') =? i)%nat; [destruct H as [<-|[]]; reflexivity | contradiction].
      - destruct (snd (fst b') =? i)%nat; [destruct H as [<-|[]]; reflexivity | contradiction]. }
    exact (bonds_ok_in n (m_pairs m) (fst b') Hok (in_map fst _ _ Hb')).
  Qed.

  Lemma atom_bonds_rel i : (i < n)%nat -> atom_bonds relabel (sigma i) = map rb (atom_bonds m i).
  Proof.
    intros Hi. unfold atom_bonds, relabel. cbn [m_bonds]. apply flat_map_map_in. intros b Hb.
    destruct (bonds_ok_in n (m_pairs m) (fst b) Hok (in_map fst _ _ Hb)) as [Ha Hc].
    unfold rb at 1 2 3 4. cbn [fst snd]. rewrite !(sigma_inj n sigma tau Hts) by assumption. rewrite map_app.
    destruct (fst (fst b) =? i)%nat; destruct (snd (fst b) =? i)%nat; reflexivity.
  Qed.

  Lemma bond_order_rel i : (i < n)%nat -> bond_order relabel (sigma i) = bond_order m i.
  Proof.
    intros Hi. unfold bond_order. rewrite atom_bonds_rel by exact Hi.
    rewrite fold_left_map, filter_map_length. reflexivity.
  Qed.

  Lemma o_atoms_rel p : (p < n)%nat -> o_atoms relabel (sigma p) = map sigma (o_atoms m p).
  Proof.
    intros Hp. unfold o_atoms. rewrite atom_bonds_rel by exact Hp. apply flat_map_map_in. intros b Hb.
    destruct (atom_bonds_lt p b Hb) as [Ha Hc]. unfold rb, isO1. cbn [fst snd filter map].
    rewrite !ty_rel, !bond_order_rel by assumption. fold (isO1 m (fst (fst b))) (isO1 m (snd (fst b))).
    destruct (isO1 m (fst (fst b))); destruct (isO1 m (snd (fst b))); reflexivity.
  Qed.

  Lemma first_O_rel i p : (i < n)%nat -> (p < n)%nat -> first_O relabel (sigma i) (sigma p) = first_O m i p.
  Proof.
    intros Hi Hp. unfold first_O. rewrite o_atoms_rel by exact Hp.
    destruct (o_atoms m p) as [|o os] eqn:Eo; [reflexivity|]. cbn [map].
    assert (Hin : In o (o_atoms m p)) by (rewrite Eo; now left).
    apply in_flat_map in Hin as [b [Hb Hin]]. apply filter_In in Hin as [Hin _].
    destruct (atom_bonds_lt p b Hb) as [Ha Hc].
    rewrite (sigma_inj n sigma tau Hts); [reflexivity | destruct Hin as [<-|[<-|[]]]; assumption | exact Hi].
  Qed.

  Lemma phosphate_rel i : (i < n)%nat -> phosphate_rule relabel (sigma i) = phosphate_rule m i.
  Proof.
    intros Hi. unfold phosphate_rule. rewrite atom_bonds_rel by exact Hi.
    destruct (atom_bonds m i) as [|b0 l] eqn:Eb; [reflexivity|]. cbn [map].
    destruct (atom_bonds_lt i b0) as [H1 H2]; [rewrite Eb; now left|].
    unfold rb at 1 2 3 4. cbn [fst snd]. rewrite !ty_rel by assumption.
    destruct (first_char (m_ty m (fst (fst b0))) =? "P")%string; [exact (first_O_rel i _ Hi H1)|].
    destruct (first_char (m_ty m (snd (fst b0))) =? "P")%string; [exact (first_O_rel i _ Hi H2) | reflexivity].
  Qed.

  (* Mol2Atom.formal_charge does not depend on where the atom stands in the file *)
  Theorem formal_charge_equivariant i :
    (i < n)%nat -> formal_charge2 relabel (sigma i) = formal_charge2 m i.
  Proof.
    intros Hi. unfold formal_charge2.
    rewrite ty_rel, bond_order_rel, phosphate_rel by exact Hi. reflexivity.
  Qed.
End FormalEquivariance.
