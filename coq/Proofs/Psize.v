(* Proofs about Model/Psize.v (C17).  What needs no property of the arithmetic
   is proved for every [Arith A] (floats included); containment, termination
   of set_smallest and the memory report are about the exact instance [QA]. *)
From Coq Require Import String Ascii List ZArith QArith Bool Lia Lqa.
From PV Require Import Lib.Lists Lib.Strings Lib.Decimal Model.Psize.
Import ListNotations.

Inductive axis := AX | AY | AZ.
Definition ax {T : Type} (i : axis) (v : vec3 T) : T :=
  let '(a, b, c) := v in match i with AX => a | AY => b | AZ => c end.

Lemma ax_map3 {T U : Type} (f : T -> U) i v : ax i (map3 f v) = f (ax i v).
Proof. destruct v as [[a b] c], i; reflexivity. Qed.
Lemma ax_zip3 {T U V : Type} (f : T -> U -> V) i v w : ax i (zip3 f v w) = f (ax i v) (ax i w).
Proof. destruct v as [[a b] c], w as [[d e] g], i; reflexivity. Qed.
Lemma vec3_ext {T : Type} (v w : vec3 T) : (forall i, ax i v = ax i w) -> v = w.
Proof.
  destruct v as [[a b] c], w as [[d e] g]. intros H.
  pose proof (H AX) as HX. pose proof (H AY) as HY. pose proof (H AZ) as HZ. cbn [ax] in *. congruence.
Qed.

Section GenericProofs.
  Context {A : Type} (ops : Arith A).

  Definition grid_ok (n : Z) : Prop := (exists k : Z, n = 32 * k + 1 /\ 1 <= k)%Z /\ (33 <= n)%Z.

  Lemma ngrid_of_temp_ok (t : Z) : grid_ok (ngrid_of_temp ops t).
  Proof.
    unfold ngrid_of_temp.
    set (k := trunc A ops _).
    destruct (Z.max_spec (32 * k + 1) 33) as [[H1 H2] | [H1 H2]]; rewrite H2; split; try lia.
    - exists 1%Z; lia.
    - exists k; lia.
  Qed.

  Lemma ngrid_of_ok (p : params) (mn mx : vec3 A) (i : axis) : grid_ok (ax i (ngrid_of ops p mn mx)).
  Proof. unfold ngrid_of. rewrite ax_map3. apply ngrid_of_temp_ok. Qed.

  Lemma set_all_fields (p : params) (st : pstate) (sz : sizing) :
    set_all ops p st = Ok sz ->
    exists mn mx,
      box st = Some (mn, mx) /\
      s_mol sz = mol_of ops mn mx /\ s_coarse sz = coarse_of ops p mn mx /\
      s_fine sz = fine_of ops p mn mx /\ s_center sz = center_of ops mn mx /\
      s_ngrid sz = ngrid_of ops p mn mx /\
      smallest ops (smallest_fuel (ngrid_of ops p mn mx)) (p_gmemceil p)
               (ngrid_of ops p mn mx) = Ok (s_nsmall sz) /\
      s_nproc sz = zip3 (nproc1 ops (p_ofrac p)) (ngrid_of ops p mn mx) (s_nsmall sz).
  Proof.
    unfold set_all. destruct (box st) as [[mn mx]|]; [|discriminate].
    destruct (eqbA ops (p_space p) (zero ops)); [discriminate|].
    destruct (smallest ops _ _ _) as [ns|e] eqn:Es; [|discriminate].
    cbn [bind].
    destruct (fine_of ops p mn mx) as [[f0 f1] f2] eqn:Ef.
    destruct (zip3 (nproc1 ops (p_ofrac p)) (ngrid_of ops p mn mx) ns) as [[n0 n1] n2] eqn:En.
    destruct (coarse_of ops p mn mx) as [[c0 c1] c2] eqn:Ec.
    destruct (nfoc1 ops (p_redfac p) f0 n0 c0); [|discriminate].
    destruct (nfoc1 ops (p_redfac p) f1 n1 c1); [|discriminate].
    destruct (nfoc1 ops (p_redfac p) f2 n2 c2); [|discriminate].
    cbn [bind]. intros H. injection H as H. subst sz. cbn.
    exists mn, mx. rewrite ?Ef, ?Ec, ?En. repeat split; try reflexivity. exact Es.
  Qed.

  Theorem grid_form (p : params) (st : pstate) (sz : sizing) :
    set_all ops p st = Ok sz -> forall i, grid_ok (ax i (s_ngrid sz)).
  Proof.
    intros H i. destruct (set_all_fields _ _ _ H) as (mn & mx & _ & _ & _ & _ & _ & Hn & _).
    rewrite Hn. apply ngrid_of_ok.
  Qed.

  Variable pfloat : string -> option A.

  Definition is_coord_line (l : string) : bool := prefix_of "ATOM" l || prefix_of "HETATM" l.

  Lemma parse_line_skip (h : string) :
    is_coord_line h = false -> parse_line pfloat h = EvSkip.
  Proof. unfold is_coord_line, parse_line. intros ->. reflexivity. Qed.

  Theorem header_filter (st : pstate) (lines : list string) :
    parse_lines ops pfloat st (filter is_coord_line lines) = parse_lines ops pfloat st lines.
  Proof.
    unfold parse_lines. revert st; induction lines as [|l r IH]; intros st; [reflexivity|].
    cbn [filter]. destruct (is_coord_line l) eqn:E.
    - cbn [map run_events]. destruct (step ops st _); cbn [bind]; [apply IH | reflexivity].
    - cbn [map run_events]. rewrite (parse_line_skip _ E). cbn [step bind]. apply IH.
  Qed.

  Corollary header_insert (st : pstate) (l1 l2 : list string) (h : string) :
    is_coord_line h = false ->
    parse_lines ops pfloat st (l1 ++ h :: l2) = parse_lines ops pfloat st (l1 ++ l2).
  Proof.
    intros Hh. rewrite <- (header_filter st (l1 ++ h :: l2)), <- (header_filter st (l1 ++ l2)).
    rewrite !filter_app. cbn [filter]. rewrite Hh. reflexivity.
  Qed.

  Corollary header_insert_run (p : params) (l1 l2 : list string) (h : string) :
    is_coord_line h = false ->
    run_psize ops pfloat p (l1 ++ h :: l2) = run_psize ops pfloat p (l1 ++ l2) /\
    run_dump_apbs ops pfloat p (l1 ++ h :: l2) = run_dump_apbs ops pfloat p (l1 ++ l2).
  Proof.
    intros Hh. unfold run_psize, run_dump_apbs. rewrite (header_insert _ l1 l2 h Hh).
    split; [reflexivity|].
    destruct (parse_lines ops pfloat (init_state ops) (l1 ++ l2)) as [st1|]; cbn [bind]; [|reflexivity].
    rewrite (header_insert _ l1 l2 h Hh). reflexivity.
  Qed.

  Lemma report_figures (p : params) (st : pstate) (sz : sizing) (m : mem_report) :
    report ops p st sz = Ok (Some m) ->
    r_est_mb m = mem_mb ops (r_grid m) /\ r_per_proc_mb m = mem_mb ops (r_grid m) /\
    r_grid m = (if r_parallel m then s_nsmall sz else s_ngrid sz) /\
    r_parallel m = gtb ops (mem_mb ops (s_ngrid sz)) (p_gmemceil p).
  Proof.
    unfold report. destruct (0 <? gotatom st)%Z; [|discriminate].
    destruct (gtb ops _ _) eqn:Eg.
    - destruct (eqbA ops _ _); [discriminate|]. destruct (spacing_ok _); [|discriminate].
      intros H; injection H as <-. cbn. auto.
    - destruct (spacing_ok _); [|discriminate]. intros H; injection H as <-. cbn. auto.
  Qed.

  (* the spacings fine_length[i] / (n - 1) of __str__ exist *)
  Lemma spacing_ok_ax (n : vec3 Z) : (forall i, ax i n <> 1%Z) -> spacing_ok n = true.
  Proof.
    destruct n as [[a b] c]. intros H. unfold spacing_ok.
    pose proof (H AX) as HX. pose proof (H AY) as HY. pose proof (H AZ) as HZ. cbn [ax] in *.
    apply Z.eqb_neq in HX, HY, HZ. rewrite HX, HY, HZ. reflexivity.
  Qed.

End GenericProofs.

Local Open Scope string_scope.

Definition is_dash (c : ascii) : bool := Ascii.eqb c "-"%char.

(* a numeric word as the format specs produce it: non-empty, no blank, '-' only in front *)
Definition clean_tok (t : string) : bool :=
  match t with
  | EmptyString => false
  | String c r => negb (is_ws c) && negb (any_char is_ws r) && negb (any_char is_dash r)
  end.
Definition starts_dash (t : string) : bool :=
  match t with String c _ => is_dash c | EmptyString => false end.

(* a tail written as (blanks, word) pairs followed by trailing blanks *)
Fixpoint render (fs : list (nat * string)) (trail : string) : string :=
  match fs with
  | [] => trail
  | (g, t) :: r => repeat_char sp g ++ t ++ render r trail
  end.

Definition kept_apart (f : nat * string) : Prop := (1 <= fst f)%nat \/ starts_dash (snd f) = true.

Definition word_ok (t : string) : bool := negb (is_empty t) && negb (any_char is_ws t).

Lemma clean_tok_inv t :
  clean_tok t = true ->
  exists c r, t = String c r /\ is_ws c = false /\ any_char is_ws r = false /\ any_char is_dash r = false.
Proof.
  destruct t as [|c r]; [discriminate|]. cbn [clean_tok]. intros H.
  apply andb_true_iff in H as [H Hd]. apply andb_true_iff in H as [Hc Hw].
  apply negb_true_iff in Hc, Hw, Hd. now exists c, r.
Qed.

Lemma clean_word_ok t : clean_tok t = true -> word_ok t = true.
Proof.
  intros H. destruct (clean_tok_inv t H) as (c & r & -> & Hc & Hw & _).
  unfold word_ok. cbn [is_empty any_char]. now rewrite Hc, Hw.
Qed.

Lemma tokens_word_app t s :
  word_ok t = true -> tokens (t ++ s) = (t ++ fst (toks s)) :: snd (toks s).
Proof.
  intros H. apply andb_true_iff in H as [Hne Hw]. apply negb_true_iff in Hne, Hw.
  rewrite tokens_toks, (toks_noblank_app _ _ Hw). cbn [fst snd]. unfold cons_ne.
  destruct t; [discriminate | reflexivity].
Qed.

(* split() never finds more words than were written, and finds as many only
   when it finds exactly the words that were written *)
Lemma tokens_render fs trail :
  all_chars is_ws trail = true ->
  Forall (fun f => word_ok (snd f) = true) fs ->
  (List.length (tokens (render fs trail)) <= List.length fs)%nat /\
  (List.length (tokens (render fs trail)) = List.length fs ->
   tokens (render fs trail) = map snd fs).
Proof.
  intros Ht Hf. induction Hf as [|[g t] fs Hw _ IH]; cbn [render List.length map snd] in *.
  - rewrite (tokens_all_ws _ Ht). split; [cbn; lia | reflexivity].
  - rewrite tokens_blanks, (tokens_word_app _ _ Hw).
    rewrite tokens_toks in IH. destruct IH as [IH1 IH2]. cbn [List.length].
    destruct (fst (toks (render fs trail))) as [|c h]; cbn [cons_ne is_empty List.length] in IH1, IH2.
    + rewrite app_empty_r. split; [lia|]. intros E. f_equal. apply IH2. lia.
    + split; lia.
Qed.

Definition starts_blank (s : string) : bool :=
  match s with EmptyString => true | String c _ => is_ws c end.

Lemma fst_toks_blank s : starts_blank s = true -> fst (toks s) = "".
Proof.
  destruct s as [|c r]; [reflexivity|]. cbn [starts_blank toks]. intros ->. destruct (toks r); reflexivity.
Qed.

Lemma all_ws_starts_blank s : all_chars is_ws s = true -> starts_blank s = true.
Proof. destruct s as [|c r]; [reflexivity|]. cbn. intros H. apply andb_true_iff in H as [-> _]. reflexivity. Qed.

Lemma tokens_render_apart fs trail :
  all_chars is_ws trail = true ->
  Forall (fun f => word_ok (snd f) = true) fs ->
  Forall (fun f => (1 <= fst f)%nat) (tl fs) ->
  tokens (render fs trail) = map snd fs.
Proof.
  intros Ht Hf. induction Hf as [|[g t] fs Hw _ IH]; cbn [render map snd tl]; intros Ha.
  - apply tokens_all_ws, Ht.
  - rewrite tokens_blanks, (tokens_word_app _ _ Hw).
    assert (Hs : fst (toks (render fs trail)) = "").
    { apply fst_toks_blank. destruct Ha as [|[[|g'] t'] fs' Hg _]; cbn [render fst] in *;
        [apply all_ws_starts_blank, Ht | lia | reflexivity]. }
    rewrite <- IH by (destruct Ha; [constructor | assumption]).
    rewrite tokens_toks, Hs, app_empty_r. reflexivity.
Qed.

Lemma dash_sp_app a b : dash_sp (a ++ b) = dash_sp a ++ dash_sp b.
Proof.
  induction a as [|c a IH]; cbn [dash_sp append]; [reflexivity|].
  destruct (Ascii.eqb c "-"); cbn [append]; now rewrite IH.
Qed.

Lemma dash_sp_nodash s : any_char is_dash s = false -> dash_sp s = s.
Proof.
  induction s as [|c s IH]; cbn [any_char dash_sp]; [reflexivity|].
  intros H. apply orb_false_iff in H as [Hc Hs]. unfold is_dash in Hc. rewrite Hc, (IH Hs). reflexivity.
Qed.

Lemma dash_sp_blanks n : dash_sp (repeat_char sp n) = repeat_char sp n.
Proof. induction n; cbn; [reflexivity | now rewrite IHn]. Qed.

Lemma all_ws_nodash s : all_chars is_ws s = true -> any_char is_dash s = false.
Proof.
  induction s as [|c s IH]; [reflexivity|]. cbn [all_chars any_char]. intros H.
  apply andb_true_iff in H as [Hc Hs]. rewrite (IH Hs), orb_false_r.
  unfold is_dash. destruct (Ascii.eqb c "-") eqn:E; [|reflexivity].
  apply Ascii.eqb_eq in E. subst c. discriminate.
Qed.

Lemma dash_sp_clean t :
  clean_tok t = true -> dash_sp t = if starts_dash t then String sp t else t.
Proof.
  intros H. destruct (clean_tok_inv t H) as (c & r & -> & _ & _ & Hd).
  cbn [dash_sp starts_dash]. rewrite (dash_sp_nodash _ Hd). unfold is_dash.
  destruct (Ascii.eqb c "-") eqn:E; [|reflexivity].
  apply Ascii.eqb_eq in E. subst c. reflexivity.
Qed.

(* replace("-", " -") only widens the gap before a word that starts with '-' *)
Definition dash_adj (f : nat * string) : nat * string :=
  (if starts_dash (snd f) then S (fst f) else fst f, snd f).

Lemma dash_sp_render fs trail :
  all_chars is_ws trail = true ->
  Forall (fun f => clean_tok (snd f) = true) fs ->
  dash_sp (render fs trail) = render (map dash_adj fs) trail.
Proof.
  intros Ht Hf. induction Hf as [|[g t] fs Hc _ IH]; cbn [render map dash_adj fst snd] in *.
  - apply dash_sp_nodash, all_ws_nodash, Ht.
  - rewrite !dash_sp_app, dash_sp_blanks, (dash_sp_clean _ Hc), IH.
    destruct (starts_dash t); [|reflexivity].
    cbn [append]. now rewrite repeat_char_snoc.
Qed.

Lemma map_snd_dash_adj fs : map snd (map dash_adj fs) = map snd fs.
Proof. rewrite map_map. reflexivity. Qed.

Lemma dash_adj_word_ok fs :
  Forall (fun f => clean_tok (snd f) = true) fs -> Forall (fun f => word_ok (snd f) = true) (map dash_adj fs).
Proof. intros H. apply Forall_map. revert H. apply Forall_impl. intros f. apply clean_word_ok. Qed.

Lemma dash_adj_apart fs :
  Forall kept_apart fs -> Forall (fun f => (1 <= fst f)%nat) (map dash_adj fs).
Proof.
  intros H. apply Forall_map. revert H. apply Forall_impl. intros [g t] [H | H]; cbn [dash_adj fst snd] in *.
  - destruct (starts_dash t); lia.
  - rewrite H. lia.
Qed.

Lemma words_after30_render (head : string) fs trail :
  String.length head = 30%nat -> all_chars is_ws trail = true ->
  Forall (fun f => clean_tok (snd f) = true) fs ->
  words_after30 (head ++ render fs trail) = tokens (render (map dash_adj fs) trail).
Proof.
  intros Hh Ht Hf. unfold words_after30. now rewrite <- Hh, drop_app_exact, (dash_sp_render _ _ Ht Hf).
Qed.

Lemma words_rendered (head : string) fs trail :
  String.length head = 30%nat -> all_chars is_ws trail = true ->
  Forall (fun f => clean_tok (snd f) = true) fs ->
  (List.length (words_after30 (head ++ render fs trail)) <= List.length fs)%nat /\
  (List.length (words_after30 (head ++ render fs trail)) = List.length fs ->
   words_after30 (head ++ render fs trail) = map snd fs).
Proof.
  intros Hh Ht Hf. rewrite (words_after30_render _ _ _ Hh Ht Hf).
  pose proof (tokens_render _ _ Ht (dash_adj_word_ok _ Hf)) as H.
  now rewrite map_length, map_snd_dash_adj in H.
Qed.

Lemma words_rendered_apart (head : string) fs trail :
  String.length head = 30%nat -> all_chars is_ws trail = true ->
  Forall (fun f => clean_tok (snd f) = true) fs ->
  Forall kept_apart (tl fs) ->
  words_after30 (head ++ render fs trail) = map snd fs.
Proof.
  intros Hh Ht Hf Ha. rewrite (words_after30_render _ _ _ Hh Ht Hf), <- (map_snd_dash_adj fs).
  apply (tokens_render_apart _ _ Ht (dash_adj_word_ok _ Hf)).
  destruct fs; [constructor | apply dash_adj_apart, Ha].
Qed.

Lemma last5_app (l five : list string) : List.length five = 5%nat -> last5 (l ++ five)%list = five.
Proof.
  intros H. unfold last5. rewrite app_length, H.
  replace (List.length l + 5 - 5)%nat with (List.length l) by lia. apply skipn_length_app.
Qed.

(* five words alone are the fields whatever the layout; after other words they
   are the fields of a whitespace-delimited record (words[-5:]) *)
Lemma fields_after30_tail (line : string) (pre five : list string) :
  words_after30 line = (pre ++ five)%list -> List.length five = 5%nat ->
  pre = [] \/ coord_dots line = false -> fields_after30 line = five.
Proof.
  intros Hw H5 Hd. unfold fields_after30. rewrite Hw.
  destruct (coord_dots line); cbn [negb]; [|apply last5_app, H5].
  destruct Hd as [-> | Hd]; [|discriminate]. cbn [List.app]. rewrite H5. reflexivity.
Qed.

Lemma parse_line_measured {A : Type} (pfloat : string -> option A)
  (head rest w0 w1 w2 w3 w4 : string) (more : list string) (x y z q r : A) :
  String.length head = 30%nat -> is_coord_line head = true ->
  fields_after30 (head ++ rest) = w0 :: w1 :: w2 :: w3 :: w4 :: more ->
  pfloat w0 = Some x -> pfloat w1 = Some y -> pfloat w2 = Some z ->
  pfloat w3 = Some q -> pfloat w4 = Some r ->
  parse_line pfloat (head ++ rest) = EvAtom (negb (prefix_of "ATOM" head)) (x, y, z, q, r).
Proof.
  intros Hh Hc Hw P0 P1 P2 P3 P4. unfold parse_line.
  rewrite !prefix_of_app by (rewrite Hh; cbn; lia).
  unfold is_coord_line in Hc. rewrite Hc, Hw, P0, P1, P2, P3, P4. reflexivity.
Qed.

(* Five numbers at the end of the words after column 30, every word after the
   first kept apart from its predecessor by a blank or its own minus sign, are
   measured exactly: either nothing precedes them (any layout), or the record
   is whitespace-delimited (decimal points not in the PDB coordinate columns)
   and whatever precedes - the insertion code of the --whitespace layout,
   tokens pushed right by wide fields - is ignored. *)
Theorem parse_line_rendered {A : Type} (pfloat : string -> option A)
  (head : string) (pre : list (nat * string)) (a0 a1 a2 a3 a4 : nat) (t0 t1 t2 t3 t4 trail : string)
  (x y z q r : A) :
  let fs := (pre ++ [(a0, t0); (a1, t1); (a2, t2); (a3, t3); (a4, t4)])%list in
  String.length head = 30%nat -> is_coord_line head = true ->
  Forall (fun f => clean_tok (snd f) = true) fs ->
  Forall kept_apart (tl fs) ->
  all_chars is_ws trail = true ->
  pre = [] \/ coord_dots (head ++ render fs trail) = false ->
  pfloat t0 = Some x -> pfloat t1 = Some y -> pfloat t2 = Some z ->
  pfloat t3 = Some q -> pfloat t4 = Some r ->
  parse_line pfloat (head ++ render fs trail) = EvAtom (negb (prefix_of "ATOM" head)) (x, y, z, q, r).
Proof.
  intros fs Hh Hc Hf Ha Ht Hd. apply (parse_line_measured pfloat head _ t0 t1 t2 t3 t4 [] x y z q r Hh Hc).
  apply (fields_after30_tail _ (map snd pre)); [|reflexivity|].
  - rewrite (words_rendered_apart head fs trail Hh Ht Hf Ha). apply map_app.
  - destruct Hd as [-> | Hd]; [left; reflexivity | right; exact Hd].
Qed.

Lemma fixed_fields_cells (head x0 x1 x2 x3 x4 trail : string) :
  String.length head = 30%nat ->
  String.length x0 = 8%nat -> String.length x1 = 8%nat -> String.length x2 = 8%nat ->
  String.length x3 = 8%nat -> String.length x4 = 7%nat ->
  fixed_fields (head ++ x0 ++ x1 ++ x2 ++ x3 ++ x4 ++ trail) =
  filter (fun w => negb (all_chars is_ws w)) [x0; x1; x2; x3; x4].
Proof.
  intros Hh N0 N1 N2 N3 N4. unfold fixed_fields. f_equal.
  set (l := [(30, head); (8, x0); (8, x1); (8, x2); (8, x3); (7, x4); (String.length trail, trail)]%nat).
  assert (F : fitted l) by (repeat constructor; assumption).
  rewrite <- (app_empty_r trail). change (head ++ _) with (cat l).
  now rewrite !(slice_cat _ _ l F).
Qed.

Lemma coord_dots_cells (head x0 x1 x2 rest : string) :
  String.length head = 30%nat ->
  String.length x0 = 8%nat -> String.length x1 = 8%nat -> String.length x2 = 8%nat ->
  coord_dots (head ++ x0 ++ x1 ++ x2 ++ rest) =
  is_dot (String.get 4 x0) && is_dot (String.get 4 x1) && is_dot (String.get 4 x2).
Proof.
  intros Hh N0 N1 N2. unfold coord_dots.
  change 50%nat with (30 + (8 + (8 + 4)))%nat. change 42%nat with (30 + (8 + 4))%nat. change 34%nat with (30 + 4)%nat.
  rewrite !(get_app_skip head _ 30 _ Hh), !(get_app_skip x0 _ 8 _ N0), (get_app_skip x1 _ 8 _ N1).
  rewrite (get_app_l x0), (get_app_l x1), (get_app_l x2) by lia. reflexivity.
Qed.

Lemma pad_tok_not_blank n t : clean_tok t = true -> all_chars is_ws (repeat_char sp n ++ t) = false.
Proof.
  intros H. induction n as [|n IH]; cbn [repeat_char append all_chars]; [|now rewrite IH, andb_false_r].
  destruct (clean_tok_inv t H) as (c & r & -> & Hc & _). cbn [all_chars]. now rewrite Hc.
Qed.

(* Every ATOM/HETATM line in the fixed-column layout of Atom.get_pqr_string whose
   five numbers fit their columns (8, 8, 8, 8, 7; '.' of a %8.3f coordinate at
   offset 4) is measured with exactly the numbers written - with or without a
   blank between neighbouring fields.  [pfloat] must ignore leading blanks, as
   python's float() does. *)
Theorem parse_line_fixed_columns {A : Type} (pfloat : string -> option A)
  (head : string) (a0 a1 a2 a3 a4 : nat) (t0 t1 t2 t3 t4 trail : string) (x y z q r : A) :
  String.length head = 30%nat -> is_coord_line head = true ->
  clean_tok t0 = true -> clean_tok t1 = true -> clean_tok t2 = true ->
  clean_tok t3 = true -> clean_tok t4 = true ->
  (a0 + String.length t0 = 8)%nat -> (a1 + String.length t1 = 8)%nat ->
  (a2 + String.length t2 = 8)%nat -> (a3 + String.length t3 = 8)%nat ->
  (a4 + String.length t4 = 7)%nat ->
  String.get 4 (repeat_char sp a0 ++ t0) = Some "."%char ->
  String.get 4 (repeat_char sp a1 ++ t1) = Some "."%char ->
  String.get 4 (repeat_char sp a2 ++ t2) = Some "."%char ->
  all_chars is_ws trail = true ->
  (forall n t, pfloat (repeat_char sp n ++ t) = pfloat t) ->
  pfloat t0 = Some x -> pfloat t1 = Some y -> pfloat t2 = Some z ->
  pfloat t3 = Some q -> pfloat t4 = Some r ->
  parse_line pfloat
    (head ++ (repeat_char sp a0 ++ t0) ++ (repeat_char sp a1 ++ t1) ++ (repeat_char sp a2 ++ t2) ++
     (repeat_char sp a3 ++ t3) ++ (repeat_char sp a4 ++ t4) ++ trail)
  = EvAtom (negb (prefix_of "ATOM" head)) (x, y, z, q, r).
Proof.
  intros Hh Hc C0 C1 C2 C3 C4 L0 L1 L2 L3 L4 D0 D1 D2 Ht Hpf P0 P1 P2 P3 P4.
  rewrite <- length_pad in L0, L1, L2, L3, L4.
  set (X0 := repeat_char sp a0 ++ t0) in *. set (X1 := repeat_char sp a1 ++ t1) in *.
  set (X2 := repeat_char sp a2 ++ t2) in *. set (X3 := repeat_char sp a3 ++ t3) in *.
  set (X4 := repeat_char sp a4 ++ t4) in *.
  set (rest := X0 ++ X1 ++ X2 ++ X3 ++ X4 ++ trail).
  set (fs := [(a0, t0); (a1, t1); (a2, t2); (a3, t3); (a4, t4)]).
  assert (Hr : render fs trail = rest).
  { unfold rest, X0, X1, X2, X3, X4. cbn [render fs]. now rewrite !app_assoc_s. }
  assert (Hf : Forall (fun f => clean_tok (snd f) = true) fs) by (repeat constructor; assumption).
  pose proof (words_rendered head fs trail Hh Ht Hf) as [W1 W2]. rewrite Hr in W1, W2.
  assert (Hd : coord_dots (head ++ rest) = true).
  { unfold rest. rewrite coord_dots_cells, D0, D1, D2 by assumption. reflexivity. }
  destruct (List.length (words_after30 (head ++ rest)) <? 5)%nat eqn:E.
  - (* fewer than five words: some neighbours have fused; the columns are used *)
    apply (parse_line_measured pfloat head rest X0 X1 X2 X3 X4 [] x y z q r Hh Hc);
      [|unfold X0, X1, X2, X3, X4; rewrite Hpf; assumption ..].
    unfold fields_after30. rewrite Hd, E. cbn [negb]. unfold rest.
    rewrite fixed_fields_cells by assumption. cbn [filter].
    unfold X0, X1, X2, X3, X4. rewrite !pad_tok_not_blank by assumption. reflexivity.
  - (* five words: they are exactly the five written *)
    apply (parse_line_measured pfloat head rest t0 t1 t2 t3 t4 [] x y z q r Hh Hc); try assumption.
    unfold fields_after30. rewrite Hd, E. cbn [negb].
    apply Nat.ltb_ge in E. cbn [List.length fs] in W1, W2. apply W2. lia.
Qed.

(* python's float() ignores leading blanks; a table-driven [pfloat] that strips
   them first satisfies the premise above *)
Definition pfloat_tab (tab : list (string * option Q)) (s : string) : option Q :=
  lookup_float tab (lstrip s).

Lemma pfloat_tab_blanks tab n t : pfloat_tab tab (repeat_char sp n ++ t) = pfloat_tab tab t.
Proof. unfold pfloat_tab. now rewrite lstrip_blanks. Qed.

(* [run_text] and [run_dump_text] look words up without stripping: the same on every
   word that split() yields, different on a padded cell of fused columns unless the
   table lists the cell as it stands *)
Lemma pfloat_tab_word tab t : starts_blank t = false -> pfloat_tab tab t = lookup_float tab t.
Proof. unfold pfloat_tab. destruct t as [|c r]; [discriminate|]. cbn [starts_blank lstrip]. now intros ->. Qed.

(* records of the --whitespace layout with a blank at every field boundary: the
   insertion code (a letter, a digit, absent in the third record) is the first
   word after column 30 *)
Example ws_tail_witness :
  let tab := [("1.000", Some (1 # 1)); ("2.000", Some (2 # 1)); ("3.000", Some (3 # 1)); ("1", Some (1 # 1));
              ("0.5000", Some (1 # 2)); ("1.5000", Some (3 # 2)); ("-10.5000", Some (-21 # 2));
              ("1000.000", Some (1000 # 1)); ("-999.999", Some (-999999 # 1000))]%Q in
  parse_line (pfloat_tab tab) "ATOM       1  CA   ALA A   12 B      1.000    2.000    3.000   0.5000  1.5000"
    = EvAtom false (1 # 1, 2 # 1, 3 # 1, 1 # 2, 3 # 2)%Q /\
  parse_line (pfloat_tab tab) "HETATM 12345  O    HOH A 1000 1   1000.000 -999.999    3.000 -10.5000  1.5000"
    = EvAtom true (1000 # 1, -999999 # 1000, 3 # 1, -21 # 2, 3 # 2)%Q /\
  parse_line (pfloat_tab tab) "ATOM       1  CA   ALA     12        1.000    2.000    3.000   0.5000  1.5000"
    = EvAtom false (1 # 1, 2 # 1, 3 # 1, 1 # 2, 3 # 2)%Q.
Proof. cbv zeta. repeat split. Qed.

(* the input of finding C17-F11 (y = 1000.000 fills its eight columns and fuses
   with x) and a record in which all five numbers run together are measured
   with the five numbers written; the first line is what the writer's column code
   (pqr_tail) produces *)
Example fixed_columns_witness :
  let tab := [("12.345", Some (12345 # 1000)); ("1000.000", Some (1000 # 1)); ("5.000", Some (5 # 1));
              ("0.1000", Some (1 # 10)); ("1.5000", Some (3 # 2)); ("1234.567", Some (1234567 # 1000));
              ("100.0000", Some (100 # 1)); ("10.0000", Some (10 # 1))]%Q in
  parse_line (pfloat_tab tab) "ATOM      2  CA  ALA     2      12.3451000.000   5.000  0.1000 1.5000"
    = EvAtom false (12345 # 1000, 1000 # 1, 5 # 1, 1 # 10, 3 # 2)%Q /\
  parse_line (pfloat_tab tab) "HETATM    2  CA  ALA     2    1234.5671000.0001234.567100.000010.0000"
    = EvAtom true (1234567 # 1000, 1000 # 1, 1234567 # 1000, 100 # 1, 10 # 1)%Q /\
  "ATOM      2  CA  ALA     2    " ++ pqr_tail "  12.345" "1000.000" "   5.000" "0.1000" "1.5000"
    = "ATOM      2  CA  ALA     2      12.3451000.000   5.000  0.1000 1.5000".
Proof. cbv zeta. repeat split. Qed.

Definition no_chr (c : ascii) (s : string) : bool := negb (any_char (Ascii.eqb c) s).

Lemma segs_nosep c b : no_chr c b = true -> segs c b = (b, []).
Proof.
  unfold no_chr. induction b as [|a b IH]; cbn [any_char segs]; [reflexivity|].
  intros H. apply negb_true_iff, orb_false_iff in H as [Ha Hb].
  rewrite IH by now rewrite Hb. rewrite Ascii.eqb_sym, Ha. reflexivity.
Qed.

Lemma segs_app c a b :
  segs c (a ++ String c b) = (fst (segs c a), (snd (segs c a) ++ split_chr c b)%list).
Proof.
  induction a as [|x a IH]; cbn [append segs].
  - rewrite Ascii.eqb_refl. unfold split_chr. destruct (segs c b); reflexivity.
  - rewrite IH. destruct (segs c a) as [h t]. cbn [fst snd].
    destruct (Ascii.eqb x c); reflexivity.
Qed.

Lemma split_chr_app c a b :
  no_chr c b = true -> split_chr c (a ++ String c b) = (split_chr c a ++ [b])%list.
Proof.
  intros Hb. unfold split_chr. rewrite segs_app. unfold split_chr.
  rewrite (segs_nosep _ _ Hb). destruct (segs c a); reflexivity.
Qed.

Theorem basename_spec (dir name : string) :
  no_chr "/" name = true -> path_part_ok name = true ->
  basename (dir ++ "/" ++ name) = name /\ basename name = name.
Proof.
  intros Hn Hok. unfold basename, path_parts. split.
  - change (dir ++ "/" ++ name) with (dir ++ String "/" name).
    rewrite (split_chr_app _ _ _ Hn), filter_app. cbn [filter]. rewrite Hok. apply last_last.
  - unfold split_chr. rewrite (segs_nosep _ _ Hn). cbn [filter]. rewrite Hok. reflexivity.
Qed.

(* the .in text opens with the read section naming Path(pqrpath).name *)
Theorem dump_apbs_names_pqr {A : Type} (fmt4 : A -> string) (pqrpath : string) (sz : sizing (A:=A)) :
  exists rest,
    dump_apbs_text fmt4 pqrpath sz =
    "read" ++ nl ++ "    mol pqr " ++ basename pqrpath ++ nl ++ "end" ++ nl ++ rest.
Proof. unfold dump_apbs_text, input_text. eexists. reflexivity. Qed.

Lemma input_text_elec (name elec : string) (prints : list string) :
  exists pre post, input_text name [elec; ""] prints = pre ++ elec ++ post.
Proof.
  exists ("read" ++ nl ++ "    mol pqr " ++ name ++ nl ++ "end" ++ nl), (String.concat "" prints ++ nl ++ "quit" ++ nl).
  unfold input_text. cbn [String.concat]. now rewrite !app_empty_r, !app_assoc_s.
Qed.

Lemma elec_auto_text_grid {A : Type} (fmt4 : A -> string) (pqrpath : string) (sz : sizing (A:=A)) :
  exists pre post,
    elec_auto_text fmt4 pqrpath sz =
    pre ++ "    mg-auto" ++ nl ++ z3_line "dime" (s_ngrid sz) ++
    f3_line fmt4 "cglen" (s_coarse sz) ++ f3_line fmt4 "fglen" (s_fine sz) ++
    "    cgcent mol 1" ++ nl ++ "    fgcent mol 1" ++ nl ++ post.
Proof. exists ("elec " ++ nl). eexists. reflexivity. Qed.

(* the ELEC section of the .in text carries ngrid as dime, coarse/fine lengths as cglen/fglen *)
Theorem dump_apbs_grid_lines {A : Type} (fmt4 : A -> string) (pqrpath : string) (sz : sizing (A:=A)) :
  exists pre post,
    dump_apbs_text fmt4 pqrpath sz =
    pre ++ "    mg-auto" ++ nl ++ z3_line "dime" (s_ngrid sz) ++
    f3_line fmt4 "cglen" (s_coarse sz) ++ f3_line fmt4 "fglen" (s_fine sz) ++
    "    cgcent mol 1" ++ nl ++ "    fgcent mol 1" ++ nl ++ post.
Proof.
  unfold dump_apbs_text.
  destruct (input_text_elec (basename pqrpath) (elec_auto_text fmt4 pqrpath sz) ["print elecEnergy 1 end"])
    as (h & q & ->).
  destruct (elec_auto_text_grid fmt4 pqrpath sz) as (e & rest & ->).
  exists (h ++ e), (rest ++ q). now rewrite !app_assoc_s.
Qed.

Local Close Scope string_scope.
Local Open Scope Q_scope.

Lemma Qltb_lt a b : Qltb a b = true <-> a < b.
Proof.
  unfold Qltb. rewrite negb_true_iff. split; intros H.
  - apply Qnot_le_lt. intros H1. apply Qle_bool_iff in H1. congruence.
  - destruct (Qle_bool b a) eqn:E; [|reflexivity]. apply Qle_bool_iff in E. lra.
Qed.
Lemma Qltb_ge a b : Qltb a b = false <-> b <= a.
Proof. unfold Qltb. rewrite negb_false_iff. apply Qle_bool_iff. Qed.

(* lra does not divide: x / literal becomes x * (1 # literal) *)
Ltac qconst := unfold Qdiv, inject_Z in *; cbn [Qinv Qnum Qden] in *.

Lemma pmin_cases a b : b < a /\ pmin QA a b = b \/ a <= b /\ pmin QA a b = a.
Proof.
  unfold pmin. cbn [ltb QA]. destruct (Qltb b a) eqn:E; [left | right]; (split; [|reflexivity]).
  - apply Qltb_lt, E.
  - apply Qltb_ge, E.
Qed.
Lemma pmax_cases a b : a < b /\ pmax QA a b = b \/ b <= a /\ pmax QA a b = a.
Proof.
  unfold pmax. cbn [ltb QA]. destruct (Qltb a b) eqn:E; [left | right]; (split; [|reflexivity]).
  - apply Qltb_lt, E.
  - apply Qltb_ge, E.
Qed.

Lemma pmin_le a b : pmin QA a b <= a /\ pmin QA a b <= b.
Proof. destruct (pmin_cases a b) as [[H ->] | [H ->]]; split; lra. Qed.
Lemma pmax_ge a b : a <= pmax QA a b /\ b <= pmax QA a b.
Proof. destruct (pmax_cases a b) as [[H ->] | [H ->]]; split; lra. Qed.

Lemma mol_len1_covers (mx mn : Q) : mx - mn <= mol_len1 QA mx mn /\ 0 <= mol_len1 QA mx mn.
Proof.
  unfold mol_len1. change (tenth QA) with (1 # 10).
  destruct (pmax_ge (sub Q QA mx mn) (1 # 10)) as [H1 H2].
  pose proof (Qred_correct (mx - mn)) as R. change (Qred (mx - mn)) with (sub Q QA mx mn) in R.
  split; lra.
Qed.

Lemma fine1_le_coarse (fadd mol coarse : Q) : fine1 QA fadd mol coarse <= coarse.
Proof. apply pmin_le. Qed.

Lemma lengths_cover (mx mn cfac fadd : Q) :
  1 <= cfac -> 0 <= fadd ->
  let mol := mol_len1 QA mx mn in
  let coarse := coarse1 QA cfac mol in
  mx - mn <= fine1 QA fadd mol coarse /\ mx - mn <= coarse.
Proof.
  intros Hc Hf mol coarse. destruct (mol_len1_covers mx mn) as [Hm H0]. fold mol in Hm, H0.
  assert (Hco : mol <= coarse) by (unfold coarse, coarse1; cbn [mul QA]; rewrite Qred_correct; nra).
  split; [|lra]. unfold fine1.
  destruct (pmin_cases (add Q QA mol fadd) coarse) as [[_ ->] | [_ ->]]; [lra|].
  cbn [add QA]. rewrite Qred_correct. lra.
Qed.

Lemma center_axis (mx mn : Q) : center1 QA mx mn == (mx + mn) / 2.
Proof. unfold center1. cbn [add div ofZ QA]. rewrite !Qred_correct. reflexivity. Qed.

Lemma centred_covers (c len mx mn : Q) :
  c == (mx + mn) / 2 -> mx - mn <= len -> c - len / 2 <= mn /\ mx <= c + len / 2.
Proof. intros E H. qconst. split; lra. Qed.

Theorem boxes_contain (p : params (A:=Q)) (mn mx : vec3 Q) (i : axis) :
  1 <= p_cfac p -> 0 <= p_fadd p ->
  let c := ax i (center_of QA mn mx) in
  let fine := ax i (fine_of QA p mn mx) in
  let coarse := ax i (coarse_of QA p mn mx) in
  (c - fine / 2 <= ax i mn /\ ax i mx <= c + fine / 2) /\
  (c - coarse / 2 <= ax i mn /\ ax i mx <= c + coarse / 2).
Proof.
  intros Hc Hf. cbv zeta. unfold center_of, fine_of, coarse_of, mol_of.
  rewrite !ax_zip3, !ax_map3, !ax_zip3.
  destruct (lengths_cover (ax i mx) (ax i mn) _ _ Hc Hf) as [F C].
  split; apply centred_covers; auto using center_axis.
Qed.

Theorem fine_le_coarse (p : params (A:=Q)) (mn mx : vec3 Q) (i : axis) :
  ax i (fine_of QA p mn mx) <= ax i (coarse_of QA p mn mx).
Proof.
  unfold fine_of, coarse_of, mol_of. rewrite !ax_zip3, !ax_map3, !ax_zip3.
  apply fine1_le_coarse.
Qed.

Theorem centered (mn mx : vec3 Q) (i : axis) :
  ax i (center_of QA mn mx) == (ax i mx + ax i mn) / 2.
Proof. unfold center_of. rewrite ax_zip3. apply center_axis. Qed.

(* the guard cfac >= 1 is needed: a coarse factor below one cuts the fine box *)
Lemma boxes_need_cfac :
  exists (p : params (A:=Q)) (mn mx : vec3 Q),
    p_cfac p < 1 /\ 0 <= p_fadd p /\
    ~ (ax AX (center_of QA mn mx) - ax AX (fine_of QA p mn mx) / 2 <= ax AX mn).
Proof.
  exists (mkP (1#2) 20 (1#2) 200 400 (1#10) (1#4)), (0, 0, 0), (10, 10, 10).
  vm_compute. intuition discriminate.
Qed.

Definition encloses (b : option (vec3 Q * vec3 Q)) (c : vec3 Q) (r : Q) : Prop :=
  exists mn mx, b = Some (mn, mx) /\ forall i, ax i mn <= ax i c - r /\ ax i c + r <= ax i mx.

(* the two `if`s of parse_lines are min and max, axis by axis *)
Lemma acc_box_ax b (c : vec3 Q) rad :
  exists mn' mx', acc_box QA b c rad = (mn', mx') /\
  forall i,
    let lo := sub Q QA (ax i c) rad in
    let hi := add Q QA (ax i c) rad in
    ax i mn' = match b with Some (mn, _) => pmin QA (ax i mn) lo | None => lo end /\
    ax i mx' = match b with Some (_, mx) => pmax QA (ax i mx) hi | None => hi end.
Proof.
  unfold acc_box. destruct b as [[mn mx]|]; eexists _, _; (split; [reflexivity|]);
    intros i; rewrite ?ax_zip3, !ax_map3; split; reflexivity.
Qed.

Lemma acc_box_grows b c rad c' r' :
  encloses b c' r' -> encloses (Some (acc_box QA b c rad)) c' r'.
Proof.
  intros (mn & mx & -> & H). destruct (acc_box_ax (Some (mn, mx)) c rad) as (mn' & mx' & -> & Hax).
  exists mn', mx'. split; [reflexivity|]. intros i. destruct (Hax i) as [-> ->], (H i).
  pose proof (pmin_le (ax i mn) (sub Q QA (ax i c) rad)) as [L _].
  pose proof (pmax_ge (ax i mx) (add Q QA (ax i c) rad)) as [U _]. split; lra.
Qed.

Lemma acc_box_has b (c : vec3 Q) rad : encloses (Some (acc_box QA b c rad)) c rad.
Proof.
  destruct (acc_box_ax b c rad) as (mn' & mx' & -> & Hax).
  exists mn', mx'. split; [reflexivity|]. intros i. destruct (Hax i) as [-> ->].
  cbn [sub add QA].
  pose proof (Qred_correct (ax i c - rad)) as R1. pose proof (Qred_correct (ax i c + rad)) as R2.
  destruct b as [[mn mx]|]; [|split; lra].
  pose proof (pmin_le (ax i mn) (Qred (ax i c - rad))) as [_ L].
  pose proof (pmax_ge (ax i mx) (Qred (ax i c + rad))) as [_ U]. split; lra.
Qed.

Lemma acc_box_idem b (c : vec3 Q) rad : encloses b c rad -> Some (acc_box QA b c rad) = b.
Proof.
  intros (mn & mx & -> & H). destruct (acc_box_ax (Some (mn, mx)) c rad) as (mn' & mx' & -> & Hax).
  do 2 f_equal; apply vec3_ext; intros i; destruct (Hax i) as [E1 E2], (H i) as [H1 H2];
    cbn [sub add QA] in *.
  - rewrite E1. destruct (pmin_cases (ax i mn) (Qred (ax i c - rad))) as [[L _] | [_ ->]]; [|reflexivity].
    rewrite Qred_correct in L. lra.
  - rewrite E2. destruct (pmax_cases (ax i mx) (Qred (ax i c + rad))) as [[L _] | [_ ->]]; [|reflexivity].
    rewrite Qred_correct in L. lra.
Qed.

Lemma step_box (st st' : pstate (A:=Q)) ev :
  step QA st ev = Ok st' ->
  box st' = match ev with
            | EvAtom _ (x, y, z, _, r) => Some (acc_box QA (box st) (x, y, z) r)
            | _ => box st
            end.
Proof.
  destruct ev as [|h|h [[[[x y] z] q] r]|h]; cbn [step]; intros [= <-]; try reflexivity;
    destruct h; reflexivity.
Qed.

Lemma step_grows st ev st' c r :
  step QA st ev = Ok st' -> encloses (box st) c r -> encloses (box st') c r.
Proof.
  intros H Hb. rewrite (step_box _ _ _ H).
  destruct ev as [| |h [[[[x y] z] q] r0]|]; auto using acc_box_grows.
Qed.

Lemma run_grows evs st st' c r :
  run_events QA st evs = Ok st' -> encloses (box st) c r -> encloses (box st') c r.
Proof.
  revert st; induction evs as [|e evs IH]; intros st; cbn [run_events].
  - intros [= <-]. auto.
  - destruct (step QA st e) as [s1|] eqn:Es; cbn [bind]; [|discriminate].
    intros H Hb. apply (IH _ H). exact (step_grows _ _ _ _ _ Es Hb).
Qed.

Definition atoms_inside (b : option (vec3 Q * vec3 Q)) (evs : list (event (A:=Q))) : Prop :=
  forall h x y z q r, In (EvAtom h (x, y, z, q, r)) evs -> encloses b (x, y, z) r.

Theorem minmax_contains_all (evs : list (event (A:=Q))) (st st' : pstate (A:=Q)) :
  run_events QA st evs = Ok st' -> atoms_inside (box st') evs.
Proof.
  revert st; induction evs as [|e evs IH]; intros st Hrun h x y z q r Hin; [destruct Hin|].
  cbn [run_events] in Hrun.
  destruct (step QA st e) as [s1|] eqn:Es; cbn [bind] in Hrun; [|discriminate].
  destruct Hin as [-> | Hin]; [|exact (IH _ Hrun h x y z q r Hin)].
  apply (run_grows _ _ _ _ _ Hrun). rewrite (step_box _ _ _ Es). apply acc_box_has.
Qed.

(* a second pass over the same lines (io.dump_apbs) leaves the box unchanged *)
Lemma rerun_same_box evs st st' :
  atoms_inside (box st) evs -> run_events QA st evs = Ok st' -> box st' = box st.
Proof.
  revert st; induction evs as [|e evs IH]; intros st Hin; cbn [run_events].
  - intros [= <-]. reflexivity.
  - destruct (step QA st e) as [s1|] eqn:Es; cbn [bind]; [|discriminate].
    assert (E : box s1 = box st).
    { rewrite (step_box _ _ _ Es). destruct e as [| |h [[[[x y] z] q] r]|]; try reflexivity.
      apply acc_box_idem, (Hin h x y z q r). now left. }
    intros H. rewrite <- E. apply IH; [|exact H].
    rewrite E. intros h x y z q r Hi. apply (Hin h x y z q r). now right.
Qed.

Theorem double_parse_same_box evs st1 st2 :
  run_events QA (init_state QA) evs = Ok st1 -> run_events QA st1 evs = Ok st2 ->
  box st2 = box st1.
Proof. intros H1. apply rerun_same_box, (minmax_contains_all _ _ _ H1). Qed.

Theorem spheres_in_boxes (p : params (A:=Q)) (evs : list (event (A:=Q))) (st : pstate (A:=Q)) (sz : sizing (A:=Q)) :
  1 <= p_cfac p -> 0 <= p_fadd p ->
  run_events QA (init_state QA) evs = Ok st -> set_all QA p st = Ok sz ->
  forall h x y z q r, In (EvAtom h (x, y, z, q, r)) evs -> 0 <= r ->
  forall i,
    let c := ax i (s_center sz) in
    let pos := ax i (x, y, z) in
    (c - ax i (s_fine sz) / 2 <= pos - r /\ pos + r <= c + ax i (s_fine sz) / 2) /\
    (c - ax i (s_coarse sz) / 2 <= pos - r /\ pos + r <= c + ax i (s_coarse sz) / 2).
Proof.
  intros Hc Hf Hrun Hset h x y z q r Hin Hr i. cbv zeta.
  destruct (set_all_fields _ _ _ _ Hset) as (mn & mx & Eb & _ & Eco & Efi & Ece & _).
  destruct (minmax_contains_all _ _ _ Hrun h x y z q r Hin) as (mn' & mx' & Eb' & Hm).
  rewrite Eb in Eb'. injection Eb' as <- <-.
  rewrite Eco, Efi, Ece.
  destruct (boxes_contain p mn mx i Hc Hf) as [[F1 F2] [C1 C2]].
  destruct (Hm i) as [M1 M2].
  repeat split; lra.
Qed.

Definition grid_below (n m : Z) : Prop :=
  exists k : Z, (0 <= k)%Z /\ n = (32 * k + 1)%Z /\ (32 * k + 1 <= m)%Z.

Lemma grid_below_intro (k m : Z) : (0 <= k)%Z -> (32 * k + 1 <= m)%Z -> grid_below (32 * k + 1) m.
Proof. intros H0 Hm. exists k. auto. Qed.

Lemma grid_ok_below (n : Z) : grid_ok n -> grid_below n n.
Proof. intros [(k & -> & Hk) _]. apply grid_below_intro; lia. Qed.

Lemma level_rep (k : Z) : ((32 * k + 1 - 1) / 32 = k)%Z.
Proof. replace (32 * k + 1 - 1)%Z with (k * 32)%Z by lia. apply Z.div_mul. lia. Qed.

Lemma reduce_rep (k : Z) : reduce (32 * k + 1) = (32 * (k - 1) + 1)%Z.
Proof. unfold reduce. now rewrite level_rep. Qed.

(* One pass of the loop on entries 32k+1 not above m: the largest entry goes
   down one level, so the fuel computed from the levels goes down by one; it
   raises only when the largest entry, hence every entry, is 1. *)
Lemma shrink_spec (m n : vec3 Z) :
  (forall i, grid_below (ax i n) (ax i m)) ->
  match shrink n with
  | Err e => e = ErrCeiling /\ n = (1, 1, 1)%Z
  | Ok n' => (forall i, grid_below (ax i n') (ax i m)) /\ (smallest_fuel n' < smallest_fuel n)%nat
  end.
Proof.
  intros H. destruct n as [[a b] c].
  pose proof (H AX) as HX. pose proof (H AY) as HY. pose proof (H AZ) as HZ. clear H. cbn [ax] in *.
  destruct HX as (ka & Ka & -> & La), HY as (kb & Kb & -> & Lb), HZ as (kc & Kc & -> & Lc).
  unfold shrink. rewrite !reduce_rep.
  set (top := Z.max _ _).
  destruct (Z.eqb_spec (32 * ka + 1) top); [|destruct (Z.eqb_spec (32 * kb + 1) top)].
  all: destruct (_ <=? 0)%Z eqn:E; [apply Z.leb_le in E | apply Z.leb_gt in E].
  (* the largest entry is 1 *)
  1, 3, 5: split; [reflexivity | repeat f_equal; lia].
  (* it is 32k+1 with k >= 1 *)
  all: split; [intros [| |]; cbn [ax]; apply grid_below_intro; lia|].
  all: cbn [smallest_fuel]; rewrite !level_rep; lia.
Qed.

(* Within the fuel the loop returns such entries under the ceiling, or raises the
   code's ValueError; it raises only at a 1 x 1 x 1 grid, whose 200 bytes the
   ceiling then does not exceed. *)
Lemma smallest_spec (fuel : nat) (ceil : Q) (m n : vec3 Z) :
  (forall i, grid_below (ax i n) (ax i m)) -> (smallest_fuel n <= S fuel)%nat ->
  match smallest QA fuel ceil n with
  | Err e => e = ErrCeiling /\ ceil <= 200 / 1024 / 1024
  | Ok n' => (forall i, grid_below (ax i n') (ax i m)) /\ mem_mb QA n' < ceil
  end.
Proof.
  revert n; induction fuel as [|f IH]; intros n Hn Hf.
  - destruct n as [[a b] c]. cbn [smallest_fuel] in Hf. lia.
  - cbn [smallest]. destruct (ltb Q QA (mem_mb QA n) ceil) eqn:Em.
    + split; [exact Hn | apply Qltb_lt, Em].
    + pose proof (shrink_spec m n Hn) as Hs.
      destruct (shrink n) as [n'|e]; cbn [bind].
      * apply IH; [apply Hs | lia].
      * destruct Hs as [-> ->]. split; [reflexivity|].
        apply Qltb_ge in Em. change (mem_mb QA (1, 1, 1)%Z) with (25 # 131072) in Em. qconst. lra.
Qed.

(* set_smallest as set_all calls it: the fuel computed from ngrid is enough *)
Lemma smallest_ngrid (p : params (A:=Q)) (mn mx : vec3 Q) :
  let ng := ngrid_of QA p mn mx in
  match smallest QA (smallest_fuel ng) (p_gmemceil p) ng with
  | Err e => e = ErrCeiling /\ p_gmemceil p <= 200 / 1024 / 1024
  | Ok ns => (forall i, grid_below (ax i ns) (ax i ng)) /\ mem_mb QA ns < p_gmemceil p
  end.
Proof.
  apply smallest_spec; [|apply Nat.le_succ_diag_r].
  intros i. apply grid_ok_below, ngrid_of_ok.
Qed.

Theorem smallest_terminates (p : params (A:=Q)) (mn mx : vec3 Q) :
  let ng := ngrid_of QA p mn mx in
  match smallest QA (smallest_fuel ng) (p_gmemceil p) ng with
  | Err e => e = ErrCeiling
  | Ok ns =>
      (forall i, exists k : Z, (0 <= k)%Z /\ ax i ns = (32 * k + 1)%Z /\ (32 * k + 1 <= ax i ng)%Z) /\
      mem_mb QA ns < p_gmemceil p
  end.
Proof.
  pose proof (smallest_ngrid p mn mx) as H. cbv zeta in *.
  destruct (smallest QA _ _ _); [exact H | apply H].
Qed.

Theorem smallest_succeeds (p : params (A:=Q)) (mn mx : vec3 Q) :
  200 / 1024 / 1024 < p_gmemceil p ->
  let ng := ngrid_of QA p mn mx in
  exists ns, smallest QA (smallest_fuel ng) (p_gmemceil p) ng = Ok ns.
Proof.
  intros Hc. pose proof (smallest_ngrid p mn mx) as H. cbv zeta in *.
  destruct (smallest QA _ _ _) as [ns|e]; [exists ns; reflexivity | destruct H; lra].
Qed.

Lemma mem_mb_prod (a b c : Z) :
  mem_mb QA (a, b, c) == 200 * inject_Z a * inject_Z b * inject_Z c / 1024 / 1024.
Proof. unfold mem_mb. cbn [add sub mul div ofZ QA]. rewrite !Qred_correct. reflexivity. Qed.

Lemma mem_mb_ints (a b c : Z) :
  mem_mb QA (a, b, c) == 200 * inject_Z (a * b * c) / 1024 / 1024.
Proof. rewrite mem_mb_prod, !inject_Z_mult. field. Qed.

Lemma set_all_nsmall (p : params (A:=Q)) (st : pstate (A:=Q)) (sz : sizing (A:=Q)) :
  set_all QA p st = Ok sz ->
  (forall i, grid_below (ax i (s_nsmall sz)) (ax i (s_ngrid sz))) /\
  mem_mb QA (s_nsmall sz) < p_gmemceil p.
Proof.
  intros Hset.
  destruct (set_all_fields _ _ _ _ Hset) as (mn & mx & _ & _ & _ & _ & _ & En & Es & _).
  pose proof (smallest_ngrid p mn mx) as H. cbv zeta in H. rewrite Es in H. rewrite En. exact H.
Qed.

Theorem mem_estimate (p : params (A:=Q)) (st : pstate (A:=Q)) (sz : sizing (A:=Q)) (m : mem_report (A:=Q)) :
  set_all QA p st = Ok sz -> report QA p st sz = Ok (Some m) ->
  (let '(nx, ny, nz) := r_grid m in
   r_est_mb m == 200 * inject_Z (nx * ny * nz) / 1024 / 1024 /\
   r_per_proc_mb m == 200 * inject_Z (nx * ny * nz) / 1024 / 1024) /\
  (if r_parallel m
   then r_grid m = s_nsmall sz /\ p_gmemceil p < mem_mb QA (s_ngrid sz) /\
        r_est_mb m < p_gmemceil p /\
        (forall i, exists k : Z, (0 <= k)%Z /\ ax i (r_grid m) = (32 * k + 1)%Z /\
                                 (32 * k + 1 <= ax i (s_ngrid sz))%Z)
   else r_grid m = s_ngrid sz /\ r_est_mb m <= p_gmemceil p).
Proof.
  intros Hset Hr.
  destruct (report_figures QA p st sz m Hr) as (E1 & E2 & E3 & E4).
  split.
  - rewrite E1, E2. destruct (r_grid m) as [[nx ny] nz]. rewrite (mem_mb_ints nx ny nz). split; reflexivity.
  - symmetry in E4. unfold gtb in E4. cbn [ltb QA] in E4.
    destruct (r_parallel m).
    + apply Qltb_lt in E4. destruct (set_all_nsmall _ _ _ Hset) as [Hk Hm].
      rewrite E1, E3. repeat split; assumption.
    + apply Qltb_ge in E4. rewrite E1, E3. split; [reflexivity | exact E4].
Qed.

Lemma Qtrunc_ge2 (q : Q) : 2 <= q -> (2 <= Qtrunc q)%Z.
Proof.
  destruct q as [n d]. unfold Qle, Qtrunc. cbn [Qnum Qden]. intros H.
  apply Z.quot_le_lower_bound; lia.
Qed.

Lemma glob_den_pos (ofrac : Q) : 0 <= ofrac -> 0 < glob_den QA ofrac.
Proof.
  intros H. unfold glob_den, zofac. change (milli QA) with (1 # 1000). change (one QA) with 1.
  cbn [add sub mul ofZ QA]. rewrite !Qred_correct. qconst. lra.
Qed.

Lemma nproc_ge2 (ofrac : Q) (ng ns : Z) :
  0 <= ofrac -> (1 <= ns)%Z -> (ns < ng)%Z -> (2 <= nproc1 QA ofrac ng ns)%Z.
Proof.
  intros Ho H1 H2. unfold nproc1. apply Z.ltb_lt in H2 as H2b. rewrite H2b. cbn [trunc QA].
  apply Qtrunc_ge2. unfold nproc_pre1, zofac. change (one QA) with 1.
  cbn [add mul div ofZ QA]. rewrite !Qred_correct.
  assert (Hs : 0 < inject_Z ns) by (change 0 with (inject_Z 0); rewrite <- Zlt_Qlt; lia).
  assert (Hg : inject_Z ns < inject_Z ng) by (rewrite <- Zlt_Qlt; lia).
  assert (Hq : 1 <= (1 + inject_Z 2 * ofrac) * inject_Z ng / inject_Z ns).
  { apply Qle_shift_div_l; [exact Hs|]. change (inject_Z 2) with 2. nra. }
  lra.
Qed.

(* an unreduced axis keeps xglob = ngrid >= 33; a reduced axis has nproc >= 2, so
   that nproc * round(...) cannot be 1 *)
Lemma glob1_not1 (ofrac : Q) (ng ns : Z) :
  0 <= ofrac -> (33 <= ng)%Z -> (1 <= ns)%Z -> glob1 QA ofrac (nproc1 QA ofrac ng ns) ns <> 1%Z.
Proof.
  intros Ho Hg Hs. unfold glob1. destruct (Z.ltb_spec ns ng) as [Hlt | Hge].
  - pose proof (nproc_ge2 ofrac ng ns Ho Hs Hlt) as H2.
    destruct (Z.eqb_spec (nproc1 QA ofrac ng ns) 1); [lia|].
    intros E. apply Z.mul_eq_1 in E. lia.
  - unfold nproc1. apply Z.ltb_ge in Hge as Hb. rewrite Hb, Z.eqb_refl. lia.
Qed.

Theorem report_total (p : params (A:=Q)) (st : pstate (A:=Q)) (sz : sizing (A:=Q)) :
  set_all QA p st = Ok sz -> 0 <= p_ofrac p -> (0 < gotatom st)%Z ->
  exists m, report QA p st sz = Ok (Some m).
Proof.
  intros Hset Ho Hg. unfold report. apply Z.ltb_lt in Hg. rewrite Hg.
  pose proof (grid_form QA p st sz Hset) as Hgrid.
  destruct (gtb QA _ _).
  - assert (Ed : eqbA QA (glob_den QA (p_ofrac p)) (zero QA) = false).
    { unfold eqbA. apply andb_false_iff. right. apply negb_false_iff, Qltb_lt, glob_den_pos, Ho. }
    rewrite Ed, spacing_ok_ax; [eexists; reflexivity|].
    destruct (set_all_nsmall _ _ _ Hset) as [Hk _].
    destruct (set_all_fields _ _ _ _ Hset) as (mn & mx & _ & _ & _ & _ & _ & En & _ & ->).
    intros i. rewrite !ax_zip3, <- En. destruct (Hk i) as (k & Hk0 & -> & _).
    apply glob1_not1; [exact Ho | apply Hgrid | lia].
  - rewrite spacing_ok_ax; [eexists; reflexivity|].
    intros i. destruct (Hgrid i) as [_ H]. lia.
Qed.

(* the input of finding C17-F12 (two atoms 100 A apart, default parameters), on
   which Psize.__str__ raised before the repair: it is reported as a parallel
   solve, 4 x 3 x 3 processors, 97 x 129 x 129 points each, 307.880 MB *)
Example report_parallel_witness :
  let p := mkP (17 # 10) 20 (1 # 2) 200 400 (1 # 10) (1 # 4) in
  let evs := [EvAtom false (0, 0, 0, 1 # 10, 3 # 2); EvAtom false (100, 100, 100, 1 # 10, 3 # 2)] : list (event (A:=Q)) in
  exists st sz m,
    run_events QA (init_state QA) evs = Ok st /\ set_all QA p st = Ok sz /\
    report QA p st sz = Ok (Some m) /\
    r_parallel m = true /\ s_ngrid sz = (257, 257, 257)%Z /\
    r_grid m = (97, 129, 129)%Z /\ s_nproc sz = (4, 3, 3)%Z /\ s_nfocus sz = 3%Z /\
    r_est_mb m = 40354425 # 131072.
Proof.
  cbv zeta. eexists _, _, _.
  split; [vm_compute; reflexivity|]. split; [vm_compute; reflexivity|].
  split; [vm_compute; reflexivity|]. vm_compute. intuition discriminate.
Qed.

(* non-vacuity: a concrete run where every hypothesis used above holds and the
   results are the ones the real code prints (33^3 grid, sequential, 6.854 MB) *)
Example nonvacuous :
  let p := mkP (17 # 10) 20 (1 # 2) 200 400 (1 # 10) (1 # 4) in
  let evs := [EvAtom false (0, 0, 0, 1 # 10, 3 # 2); EvCount false; EvSkip;
              EvAtom true (10, 10, 10, 1 # 10, 3 # 2)] : list (event (A:=Q)) in
  exists st sz m,
    run_events QA (init_state QA) evs = Ok st /\ set_all QA p st = Ok sz /\
    report QA p st sz = Ok (Some m) /\
    1 <= p_cfac p /\ 0 <= p_fadd p /\ 0 <= p_ofrac p /\
    gotatom st = 2%Z /\ gothet st = 1%Z /\
    box st = Some ((-3 # 2, -3 # 2, -3 # 2), (23 # 2, 23 # 2, 23 # 2)) /\
    s_ngrid sz = (33, 33, 33)%Z /\ s_center sz = (5, 5, 5) /\
    s_fine sz = (221 # 10, 221 # 10, 221 # 10) /\ s_coarse sz = (221 # 10, 221 # 10, 221 # 10) /\
    s_nfocus sz = 2%Z /\ r_est_mb m = 898425 # 131072.
Proof.
  cbv zeta. eexists _, _, _.
  split; [vm_compute; reflexivity|]. split; [vm_compute; reflexivity|].
  split; [vm_compute; reflexivity|]. vm_compute. intuition discriminate.
Qed.
